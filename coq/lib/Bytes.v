(* Byte strings as [list N] (each < 256) and the little-endian integer codec that
   models struct.pack / struct.unpack with the single-type native formats B, H, I. *)
From Coq Require Import NArith List Lia Bool.
From RC Require Import lib.Result.
Import ListNotations.
Local Open Scope N_scope.

Definition bytes := list N.

Definition byte_okb (b : N) : bool := b <? 256.
Definition bytes_okb (bs : bytes) : bool := forallb byte_okb bs.
Definition bytes_ok (bs : bytes) : Prop := Forall (fun b => b < 256) bs.

Lemma bytes_okb_spec bs : bytes_okb bs = true <-> bytes_ok bs.
Proof.
  unfold bytes_okb, bytes_ok, byte_okb. rewrite forallb_forall, Forall_forall.
  split; intros H x Hx; apply N.ltb_lt, H, Hx.
Qed.

Fixpoint le_encode (w : nat) (n : N) : bytes :=
  match w with
  | O => []
  | S w' => (n mod 256) :: le_encode w' (n / 256)
  end.

Fixpoint le_decode (bs : bytes) : N :=
  match bs with
  | [] => 0
  | b :: r => b + 256 * le_decode r
  end.

Definition pow256 (w : nat) : N := 256 ^ (N.of_nat w).

(* struct.pack("<code>", v): raises struct.error when v does not fit. *)
Definition pack (w : nat) (v : N) : result bytes :=
  if v <? pow256 w then Ok (le_encode w v) else Raise StructError.

Lemma le_encode_length w n : length (le_encode w n) = w.
Proof. revert n; induction w as [|w IH]; simpl; intros n; [reflexivity | rewrite IH; reflexivity]. Qed.

Lemma pow256_S w : pow256 (S w) = 256 * pow256 w.
Proof. unfold pow256. rewrite Nat2N.inj_succ, N.pow_succ_r'. reflexivity. Qed.

Lemma pow256_pos w : 0 < pow256 w.
Proof. unfold pow256. apply N.neq_0_lt_0. apply N.pow_nonzero. discriminate. Qed.

Lemma le_decode_encode w n : n < pow256 w -> le_decode (le_encode w n) = n.
Proof.
  revert n; induction w as [|w IH]; intros n Hn.
  - unfold pow256 in Hn; simpl in Hn. simpl. lia.
  - cbn [le_encode le_decode]. rewrite pow256_S in Hn.
    rewrite IH.
    + pose proof (N.div_mod n 256). lia.
    + apply N.div_lt_upper_bound; lia.
Qed.

Lemma le_encode_ok w n : bytes_ok (le_encode w n).
Proof.
  revert n; induction w as [|w IH]; intros n; simpl; constructor.
  - apply N.mod_lt; discriminate.
  - apply IH.
Qed.

Lemma le_decode_bound bs : bytes_ok bs -> le_decode bs < pow256 (length bs).
Proof.
  induction 1 as [|b r Hb Hr IH]; cbn [le_decode length].
  - unfold pow256; simpl; lia.
  - rewrite pow256_S. lia.
Qed.

Lemma le_encode_decode bs : bytes_ok bs -> le_encode (length bs) (le_decode bs) = bs.
Proof.
  induction 1 as [|b r Hb Hr IH]; cbn [le_decode length le_encode]; [reflexivity|].
  f_equal.
  - rewrite N.mul_comm, N.mod_add by discriminate. apply N.mod_small; assumption.
  - rewrite N.mul_comm, N.div_add by discriminate.
    rewrite (N.div_small b 256) by assumption. rewrite N.add_0_l. exact IH.
Qed.

Lemma pack_ok_inv w v bs : pack w v = Ok bs -> v < pow256 w /\ bs = le_encode w v.
Proof.
  unfold pack. destruct (v <? pow256 w) eqn:E; intros H; [|discriminate].
  inversion H; subst. split; [apply N.ltb_lt; assumption | reflexivity].
Qed.

Lemma pack_length w v b : pack w v = Ok b -> length b = w.
Proof. intros H. apply pack_ok_inv in H as [_ ->]. apply le_encode_length. Qed.

Lemma pack_fits w v : v < pow256 w -> pack w v = Ok (le_encode w v).
Proof. intros H. unfold pack. apply N.ltb_lt in H. rewrite H. reflexivity. Qed.

Lemma pack_decode w bs : bytes_ok bs -> length bs = w -> pack w (le_decode bs) = Ok bs.
Proof.
  intros Hok <-. rewrite pack_fits by (apply le_decode_bound; assumption).
  rewrite le_encode_decode by assumption. reflexivity.
Qed.

(* Python's stream.read(n): at most n bytes, never an error. *)
Definition take_bytes (n : nat) (bs : bytes) : bytes * bytes := (firstn n bs, skipn n bs).

(* struct.unpack("<code>", stream.read(w))[0] *)
Definition unpack (w : nat) (bs : bytes) : result (N * bytes) :=
  if Nat.leb w (length bs) then Ok (le_decode (firstn w bs), skipn w bs) else Raise StructError.

Lemma unpack_ok_inv w bs v rest :
  unpack w bs = Ok (v, rest) -> (w <= length bs)%nat /\ v = le_decode (firstn w bs) /\ rest = skipn w bs.
Proof.
  unfold unpack. destruct (Nat.leb w (length bs)) eqn:E; intros H; [|discriminate].
  apply PeanoNat.Nat.leb_le in E. inversion H; auto.
Qed.

Lemma unpack_raises w bs e : unpack w bs = Raise e -> e = StructError.
Proof. unfold unpack. destruct (Nat.leb w (length bs)); intros H; inversion H. reflexivity. Qed.

Lemma unpack_short w bs : (length bs < w)%nat -> unpack w bs = Raise StructError.
Proof. intros H. unfold unpack. rewrite (proj2 (PeanoNat.Nat.leb_gt _ _)) by assumption. reflexivity. Qed.

Lemma bytes_ok_app a b : bytes_ok a -> bytes_ok b -> bytes_ok (a ++ b).
Proof. intros; apply Forall_app; split; assumption. Qed.

Lemma bytes_ok_app_inv a b : bytes_ok (a ++ b) -> bytes_ok a /\ bytes_ok b.
Proof. intros H; apply Forall_app in H; exact H. Qed.

Lemma bytes_ok_firstn n bs : bytes_ok bs -> bytes_ok (firstn n bs).
Proof. intros H. rewrite <- (firstn_skipn n bs) in H. apply bytes_ok_app_inv in H. tauto. Qed.

Lemma bytes_ok_skipn n bs : bytes_ok bs -> bytes_ok (skipn n bs).
Proof. intros H. rewrite <- (firstn_skipn n bs) in H. apply bytes_ok_app_inv in H. tauto. Qed.

Lemma unpack_app w pre rest : length pre = w -> unpack w (pre ++ rest) = Ok (le_decode pre, rest).
Proof.
  intros H. unfold unpack. rewrite firstn_app_exact, skipn_app_exact, app_length, H by assumption.
  rewrite (proj2 (PeanoNat.Nat.leb_le _ _)) by lia. reflexivity.
Qed.

Lemma unpack_app_inv w bs v rest :
  unpack w bs = Ok (v, rest) -> exists pre, bs = pre ++ rest /\ length pre = w /\ v = le_decode pre.
Proof.
  intros H. apply unpack_ok_inv in H as (Hlen & -> & ->). exists (firstn w bs).
  split; [symmetry; apply firstn_skipn|]. split; [apply firstn_length_le; assumption | reflexivity].
Qed.

Lemma unpack_pack w bs v rest :
  bytes_ok bs -> unpack w bs = Ok (v, rest) ->
  exists pre, pack w v = Ok pre /\ pre ++ rest = bs /\ length pre = w.
Proof.
  intros Hok H. apply unpack_app_inv in H as (pre & -> & Hl & ->). apply bytes_ok_app_inv in Hok as [Hok _].
  exists pre. auto using pack_decode.
Qed.

Lemma pack_unpack w v pre rest :
  pack w v = Ok pre -> unpack w (pre ++ rest) = Ok (v, rest).
Proof.
  intros H. apply pack_ok_inv in H as (Hv & ->).
  rewrite unpack_app, le_decode_encode by auto using le_encode_length. reflexivity.
Qed.
