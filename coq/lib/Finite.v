(* Complete finite sweeps that run inside the kernel: [forall_below n p] checks p on
   0 .. n-1 by N.iter (binary recursion depth, no nat literal); [forall_below_spec] lifts
   the boolean result to the universally quantified statement, [forall_below_complete] is the converse. *)
From Coq Require Import NArith Lia Bool.
Local Open Scope N_scope.

Definition sweep_step (p : N -> bool) (st : N * bool) : N * bool :=
  let '(k, acc) := st in (N.succ k, acc && p k).

Definition forall_below (n : N) (p : N -> bool) : bool :=
  snd (N.iter n (sweep_step p) (0, true)).

Lemma sweep_iter_fst n p : fst (N.iter n (sweep_step p) (0, true)) = n.
Proof.
  induction n as [|n IH] using N.peano_ind; [reflexivity|].
  rewrite N.iter_succ. destruct (N.iter n (sweep_step p) (0, true)) as [k acc].
  simpl in *. subst. reflexivity.
Qed.

Lemma forall_below_spec n p :
  forall_below n p = true -> forall k, k < n -> p k = true.
Proof.
  unfold forall_below. induction n as [|n IH] using N.peano_ind; intros H k Hk; [lia|].
  rewrite N.iter_succ in H. pose proof (sweep_iter_fst n p) as Hf.
  destruct (N.iter n (sweep_step p) (0, true)) as [j acc]. simpl in *. subst j.
  apply andb_true_iff in H as [Hacc Hp].
  destruct (N.eq_dec k n) as [->|Hne]; [assumption|]. apply IH; [assumption|lia].
Qed.

Lemma forall_below_complete n p :
  (forall k, k < n -> p k = true) -> forall_below n p = true.
Proof.
  unfold forall_below. induction n as [|n IH] using N.peano_ind; intros H; [reflexivity|].
  rewrite N.iter_succ. pose proof (sweep_iter_fst n p) as Hf.
  destruct (N.iter n (sweep_step p) (0, true)) as [j acc]. simpl in *. subst j.
  rewrite IH by (intros; apply H; lia). rewrite H by lia. reflexivity.
Qed.

(* index of the first k below n that fails p (for counterexample extraction) *)
Definition first_failing (n : N) (p : N -> bool) : option N :=
  snd (N.iter n (fun st : N * option N =>
                   let '(k, r) := st in
                   (N.succ k, match r with Some _ => r | None => if p k then None else Some k end))
              (0, None)).
