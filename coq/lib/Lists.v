(* List facts the standard library of 8.16 lacks, on Forall2, filter, flat_map, NoDup, combine, firstn / skipn, fold_left, forallb. *)
From Coq Require Import List.
Import ListNotations.

Section Forall2.
  Context {A B : Type} (R : A -> B -> Prop).

  Lemma Forall2_length l r : Forall2 R l r -> length l = length r.
  Proof. induction 1; simpl; congruence. Qed.

  Lemma Forall2_flip l r : Forall2 R l r -> Forall2 (fun b a => R a b) r l.
  Proof. induction 1; constructor; assumption. Qed.

  Lemma Forall2_nth_l l r i a :
    Forall2 R l r -> nth_error l i = Some a -> exists b, nth_error r i = Some b /\ R a b.
  Proof.
    intros F; revert i; induction F as [|x y l r Hxy _ IH]; intros [|i] H; try discriminate; simpl in *.
    - inversion H; subst; eauto.
    - auto.
  Qed.

  Lemma Forall2_impl_Forall_l (P : A -> Prop) l r : (forall a b, R a b -> P a) -> Forall2 R l r -> Forall P l.
  Proof. intros HP; induction 1; constructor; eauto. Qed.

  Lemma Forall2_of_Forall_exists l : Forall (fun a => exists b, R a b) l -> exists r, Forall2 R l r.
  Proof. induction 1 as [|a l [b Hb] _ [r IH]]; eauto. Qed.

  Lemma Forall2_impl_in (R' : A -> B -> Prop) l r :
    (forall a b, In a l -> R a b -> R' a b) -> Forall2 R l r -> Forall2 R' l r.
  Proof.
    intros HR F; induction F as [|x y l r Hxy _ IH]; constructor.
    - apply HR; [left; reflexivity | assumption].
    - apply IH. intros a b Ha. apply HR. right. assumption.
  Qed.

  Lemma Forall2_combine_in l r a b : Forall2 R l r -> In (a, b) (combine l r) -> R a b.
  Proof. induction 1 as [|x y l r Hxy _ IH]; simpl; [tauto | intros [E|H]; [congruence | auto]]. Qed.

  Lemma Forall2_in_l l r a : Forall2 R l r -> In a l -> exists b, In (a, b) (combine l r) /\ R a b.
  Proof.
    induction 1 as [|x y l r Hxy _ IH]; simpl; [tauto|]. intros [<-|H]; [eauto|].
    destruct (IH H) as (b & Hb & Hab). eauto.
  Qed.
End Forall2.

Lemma Forall2_nth_r {A B} (R : A -> B -> Prop) l r i b :
  Forall2 R l r -> nth_error r i = Some b -> exists a, nth_error l i = Some a /\ R a b.
Proof. intros F. apply (Forall2_nth_l _ r l i b (Forall2_flip R l r F)). Qed.

Lemma Forall2_map_l {A A' B} (f : A -> A') (R : A' -> B -> Prop) l r :
  Forall2 (fun a b => R (f a) b) l r -> Forall2 R (map f l) r.
Proof. induction 1; simpl; constructor; assumption. Qed.

Lemma Forall2_map_l_inv {A A' B} (f : A -> A') (R : A' -> B -> Prop) l : forall r,
  Forall2 R (map f l) r -> Forall2 (fun a b => R (f a) b) l r.
Proof. induction l as [|x l IH]; intros r H; inversion H; subst; constructor; auto. Qed.

Lemma Forall2_of_nth {A B} (P : A -> B -> Prop) : forall l r,
  length l = length r ->
  (forall i a b, nth_error l i = Some a -> nth_error r i = Some b -> P a b) -> Forall2 P l r.
Proof.
  induction l as [|a l IH]; intros [|b r] Hlen H; simpl in Hlen; try discriminate; constructor.
  - apply (H 0); reflexivity.
  - apply IH; [congruence|]. intros i x y Hx Hy. apply (H (S i)); assumption.
Qed.

Lemma filter_all {A} (p : A -> bool) l : (forall x, In x l -> p x = true) -> filter p l = l.
Proof.
  induction l as [|x l IH]; intros H; simpl; [reflexivity|]. rewrite (H x (or_introl eq_refl)). f_equal.
  apply IH. intros y Hy. apply H. right. exact Hy.
Qed.

Lemma filter_none {A} (p : A -> bool) l : (forall x, In x l -> p x = false) -> filter p l = [].
Proof.
  induction l as [|x l IH]; intros H; simpl; [reflexivity|]. rewrite (H x (or_introl eq_refl)).
  apply IH. intros y Hy. apply H. right. exact Hy.
Qed.

Lemma filter_comm {A} (p q : A -> bool) l : filter p (filter q l) = filter q (filter p l).
Proof.
  induction l as [|x l IH]; simpl; [reflexivity|]. destruct (q x) eqn:Eq; destruct (p x) eqn:Ep; simpl.
  - rewrite Ep, Eq, IH. reflexivity.
  - rewrite Ep. exact IH.
  - rewrite Eq. exact IH.
  - exact IH.
Qed.

Lemma flat_map_flat_map {A B C} (f : B -> list C) (g : A -> list B) l :
  flat_map f (flat_map g l) = flat_map (fun x => flat_map f (g x)) l.
Proof. induction l as [|x l IH]; simpl; [reflexivity | rewrite flat_map_app, IH; reflexivity]. Qed.

Lemma flat_map_filter {A B} (g : A -> list B) (p : A -> bool) l :
  (forall a, p a = false -> g a = []) -> flat_map g l = flat_map g (filter p l).
Proof.
  intros H. induction l as [|a l IH]; [reflexivity|]. simpl.
  destruct (p a) eqn:E; simpl; rewrite IH; [|rewrite (H a E)]; reflexivity.
Qed.

Lemma filter_map_fixed {A} (P : A -> bool) (g : A -> A) l :
  (forall s, In s l -> P (g s) = P s /\ (P s = true -> g s = s)) -> filter P (map g l) = filter P l.
Proof.
  induction l as [|x l IH]; intros H; simpl; [reflexivity|].
  destruct (H x (or_introl eq_refl)) as [E Hx]. rewrite E, IH by (intros s Hs; apply H; right; exact Hs).
  destruct (P x); [rewrite Hx|]; reflexivity.
Qed.

Lemma NoDup_app_intro {A} (a b : list A) :
  NoDup a -> NoDup b -> (forall x, In x b -> ~ In x a) -> NoDup (a ++ b).
Proof.
  induction a as [|x a IH]; intros Ha Hb Hd; simpl; [exact Hb|].
  inversion Ha as [|? ? Hnot Ha']; subst. constructor.
  - intros Hc. apply in_app_iff in Hc as [Hc|Hc]; [contradiction|]. apply (Hd x Hc). left. reflexivity.
  - apply IH; [exact Ha' | exact Hb |]. intros y Hy Hc. apply (Hd y Hy). right. exact Hc.
Qed.

Lemma combine_fst_snd {A B} (l : list (A * B)) : combine (map fst l) (map snd l) = l.
Proof. induction l as [|[a b] l IH]; simpl; [reflexivity | rewrite IH; reflexivity]. Qed.

Lemma map_snd_combine {A B} (a : list A) (b : list B) : length a = length b -> map snd (combine a b) = b.
Proof.
  revert b. induction a as [|x a IH]; intros [|y b] H; simpl in *; try discriminate; [reflexivity|].
  f_equal. apply IH. congruence.
Qed.

Lemma not_existsb_eqb {A} (eqb : A -> A -> bool) x l :
  (forall y, eqb y y = true) -> existsb (eqb x) l = false -> ~ In x l.
Proof.
  intros Hrefl E Hin. assert (existsb (eqb x) l = true); [|congruence].
  apply existsb_exists. exists x. auto.
Qed.

Lemma firstn_app_exact {A} n (p q : list A) : length p = n -> firstn n (p ++ q) = p.
Proof. intros <-. rewrite firstn_app, PeanoNat.Nat.sub_diag, firstn_all. apply app_nil_r. Qed.

Lemma firstn_nth_last {A} (d : A) n : forall l, length l = S n -> firstn n l ++ [nth n l d] = l.
Proof.
  induction n as [|n IH]; intros [|a l] H; try discriminate; simpl.
  - destruct l; [reflexivity | discriminate].
  - f_equal. apply IH. simpl in H. congruence.
Qed.

Lemma skipn_app_exact {A} n (p q : list A) : length p = n -> skipn n (p ++ q) = q.
Proof. intros <-. rewrite skipn_app, PeanoNat.Nat.sub_diag, skipn_all. reflexivity. Qed.

Lemma skipn_skipn {A} (x y : nat) (l : list A) : skipn x (skipn y l) = skipn (y + x) l.
Proof.
  revert l; induction y as [|y IH]; intros l; simpl; [reflexivity|].
  destruct l as [|a l]; [destruct x; reflexivity | apply IH].
Qed.

Lemma fold_left_ext_in {A B} (f g : A -> B -> A) l : forall a,
  (forall a x, In x l -> f a x = g a x) -> fold_left f l a = fold_left g l a.
Proof.
  induction l as [|x l IH]; intros a H; simpl; [reflexivity|].
  rewrite (H a x (or_introl eq_refl)). apply IH. intros b y Hy. apply H. right. assumption.
Qed.

Lemma forallb_of_Forall {A} (p : A -> bool) l : Forall (fun x => p x = true) l -> forallb p l = true.
Proof. induction 1 as [|x l Hx _ IH]; simpl; [reflexivity | rewrite Hx, IH; reflexivity]. Qed.

Lemma forallb_ext {A} (f g : A -> bool) l : (forall x, f x = g x) -> forallb f l = forallb g l.
Proof. intros H. induction l as [|x l IH]; simpl; [|rewrite H, IH]; reflexivity. Qed.
