(* Result type of the executable models (all but model/Heap.v): Python exceptions become [Raise e]. *)
From Coq Require Import List.
From RC Require Export lib.Lists.
Import ListNotations.

Inductive err : Set :=
| StructError | UnicodeError | IndexError | KeyError | ValueError | AssertionError
| NotImplementedErr | FileExists | FileNotFound | OsError | TypeError | ImportErr | OutOfFuel.

Inductive result (A : Type) : Type :=
| Ok (a : A)
| Raise (e : err).
Arguments Ok {A} a.
Arguments Raise {A} e.

Definition bind {A B} (r : result A) (f : A -> result B) : result B :=
  match r with Ok a => f a | Raise e => Raise e end.

Notation "'do' x <- r ; k" := (bind r (fun x => k))
  (at level 200, x pattern, r at level 100, k at level 200, right associativity).

Definition is_ok {A} (r : result A) : bool := match r with Ok _ => true | Raise _ => false end.

Fixpoint mapM {A B} (f : A -> result B) (l : list A) : result (list B) :=
  match l with
  | [] => Ok []
  | x :: xs => do y <- f x; do ys <- mapM f xs; Ok (y :: ys)
  end.

Definition of_option {A} (e : err) (o : option A) : result A :=
  match o with Some a => Ok a | None => Raise e end.

Lemma bind_ok_inv {A B} (r : result A) (f : A -> result B) b :
  bind r f = Ok b -> exists a, r = Ok a /\ f a = Ok b.
Proof. destruct r; simpl; intros H; [eauto | discriminate]. Qed.

Lemma bind_raise_inv {A B} (r : result A) (f : A -> result B) e :
  bind r f = Raise e -> r = Raise e \/ exists a, r = Ok a /\ f a = Raise e.
Proof. destruct r; simpl; intros H; [right; eauto | left; congruence]. Qed.

Lemma bind_ret_raise_inv {A B} (r : result A) (g : A -> B) e : (do a <- r; Ok (g a)) = Raise e -> r = Raise e.
Proof. destruct r; simpl; intros H; inversion H. reflexivity. Qed.

Tactic Notation "inv_bind" hyp(H) "as" ident(x) ident(Hx) ident(Hk) :=
  apply bind_ok_inv in H as (x & Hx & Hk).

(* use this, not [injection]/[inversion], when a carries [literal + x] in N: those normalise the sum into a huge match *)
Lemma Ok_inj {A} (a b : A) : Ok a = Ok b -> a = b.
Proof. intros [= ->]. reflexivity. Qed.

Lemma mapM_cons_inv {A B} (f : A -> result B) x l r :
  mapM f (x :: l) = Ok r -> exists y ys, f x = Ok y /\ mapM f l = Ok ys /\ r = y :: ys.
Proof.
  simpl. intros H. inv_bind H as y Hy H. inv_bind H as ys Hys H. inversion H. eauto.
Qed.

Lemma mapM_Forall2 {A B} (f : A -> result B) l r : mapM f l = Ok r <-> Forall2 (fun a b => f a = Ok b) l r.
Proof.
  split.
  - revert r; induction l as [|x l IH]; intros r H.
    + inversion H; constructor.
    + apply mapM_cons_inv in H as (y & ys & Hy & Hys & ->). constructor; auto.
  - induction 1 as [|a b l r Hab _ IH]; simpl; [reflexivity | rewrite Hab, IH; reflexivity].
Qed.

Lemma mapM_length {A B} (f : A -> result B) l l' : mapM f l = Ok l' -> length l' = length l.
Proof. intros H. symmetry. apply mapM_Forall2 in H. exact (Forall2_length _ _ _ H). Qed.

Lemma mapM_nth {A B} (f : A -> result B) l l' i a :
  mapM f l = Ok l' -> nth_error l i = Some a -> exists b, f a = Ok b /\ nth_error l' i = Some b.
Proof. intros H Hn. apply mapM_Forall2 in H. destruct (Forall2_nth_l _ _ _ _ _ H Hn) as (b & ? & ?). eauto. Qed.

Lemma mapM_in {A B} (f : A -> result B) l l' b :
  mapM f l = Ok l' -> In b l' -> exists i a, nth_error l i = Some a /\ f a = Ok b.
Proof.
  intros H Hin. apply mapM_Forall2 in H. apply In_nth_error in Hin as [i Hi].
  destruct (Forall2_nth_r _ _ _ _ _ H Hi) as (a & ? & ?). eauto.
Qed.

Lemma mapM_forall_in {A B} (f : A -> result B) (P : B -> Prop) l l' :
  (forall a b, In a l -> f a = Ok b -> P b) -> mapM f l = Ok l' -> Forall P l'.
Proof.
  intros Hf H. apply Forall_forall. intros b Hb. destruct (mapM_in _ _ _ _ H Hb) as (i & a & Hn & Hfa).
  eapply Hf; eauto using nth_error_In.
Qed.

Lemma mapM_forall {A B} (f : A -> result B) (P : B -> Prop) l l' :
  (forall a b, f a = Ok b -> P b) -> mapM f l = Ok l' -> Forall P l'.
Proof. intros Hf. apply mapM_forall_in. intros a b _. apply Hf. Qed.

Lemma mapM_all_ok {A B} (f : A -> result B) l :
  Forall (fun a => exists b, f a = Ok b) l -> exists l', mapM f l = Ok l'.
Proof. intros H. destruct (Forall2_of_Forall_exists _ _ H) as [r F]. exists r. apply mapM_Forall2. exact F. Qed.

Lemma mapM_ext_in {A B} (f g : A -> result B) l : (forall x, In x l -> f x = g x) -> mapM f l = mapM g l.
Proof.
  induction l as [|x l IH]; intros H; simpl; [reflexivity|].
  rewrite (H x (or_introl eq_refl)), IH; [reflexivity|]. intros y Hy. apply H. right. assumption.
Qed.

Lemma mapM_app_eq {A B} (f : A -> result B) a b :
  mapM f (a ++ b) = do x <- mapM f a; do y <- mapM f b; Ok (x ++ y).
Proof.
  induction a as [|u a IH]; simpl; [destruct (mapM f b); reflexivity|].
  destruct (f u); [|reflexivity]. simpl. rewrite IH. destruct (mapM f a); [|reflexivity]. simpl.
  destruct (mapM f b); reflexivity.
Qed.

Lemma mapM_app {A B} (f : A -> result B) l1 l2 r :
  mapM f (l1 ++ l2) = Ok r -> exists r1 r2, mapM f l1 = Ok r1 /\ mapM f l2 = Ok r2 /\ r = r1 ++ r2.
Proof.
  rewrite mapM_app_eq. intros H. inv_bind H as r1 H1 H. inv_bind H as r2 H2 H. apply Ok_inj in H. eauto.
Qed.

Lemma mapM_filter {A B} (f : A -> result B) (p : A -> bool) (q : B -> bool) l : forall l',
  (forall a b, f a = Ok b -> q b = p a) -> mapM f l = Ok l' -> mapM f (filter p l) = Ok (filter q l').
Proof.
  intros l' Hpq. revert l'. induction l as [|x l IH]; intros l' H; [inversion H; reflexivity|].
  apply mapM_cons_inv in H as (y & ys & Hy & Hys & ->). simpl. rewrite (Hpq _ _ Hy).
  destruct (p x); [simpl; rewrite Hy|]; rewrite (IH _ Hys); reflexivity.
Qed.

Lemma fold_raise {A B} (f : A -> B -> result A) l e :
  fold_left (fun acc o => do r <- acc; f r o) l (Raise e) = Raise e.
Proof. induction l as [|o l IH]; simpl; [reflexivity | exact IH]. Qed.
