(* UTF-8 as CPython implements bytes(s, "utf-8") / bytes.decode("utf-8") (strict). *)
From Coq Require Import String NArith List Bool Lia.
From RC Require Import lib.Result.
Import ListNotations.
Local Open Scope N_scope.

(* one code point -> bytes; lone surrogates raise UnicodeEncodeError, > 0x10FFFF cannot occur in a str *)
Definition utf8_encode_cp (c : N) : result (list N) :=
  if c <? 128 then Ok [c]
  else if c <? 2048 then Ok [192 + c / 64; 128 + c mod 64]
  else if c <? 65536 then
    if (55296 <=? c) && (c <? 57344) then Raise UnicodeError
    else Ok [224 + c / 4096; 128 + (c / 64) mod 64; 128 + c mod 64]
  else if c <? 1114112 then
    Ok [240 + c / 262144; 128 + (c / 4096) mod 64; 128 + (c / 64) mod 64; 128 + c mod 64]
  else Raise ValueError.

Fixpoint utf8_encode (s : list N) : result (list N) :=
  match s with
  | [] => Ok []
  | c :: r => do a <- utf8_encode_cp c; do b <- utf8_encode r; Ok (a ++ b)
  end.

Definition is_cont (b : N) : bool := (128 <=? b) && (b <? 192).

Fixpoint utf8_decode_fuel (fuel : nat) (bs : list N) : result (list N) :=
  match fuel with
  | O => match bs with [] => Ok [] | _ => Raise OutOfFuel end
  | S fuel' =>
    match bs with
    | [] => Ok []
    | b0 :: r0 =>
      if b0 <? 128 then do t <- utf8_decode_fuel fuel' r0; Ok (b0 :: t)
      else if (194 <=? b0) && (b0 <? 224) then
        match r0 with
        | b1 :: r1 =>
            if is_cont b1 then do t <- utf8_decode_fuel fuel' r1; Ok ((b0 - 192) * 64 + (b1 - 128) :: t)
            else Raise UnicodeError
        | _ => Raise UnicodeError
        end
      else if (224 <=? b0) && (b0 <? 240) then
        match r0 with
        | b1 :: b2 :: r2 =>
            let lo := if b0 =? 224 then 160 else 128 in
            let hi := if b0 =? 237 then 160 else 192 in
            if (lo <=? b1) && (b1 <? hi) && is_cont b2 then
              do t <- utf8_decode_fuel fuel' r2;
              Ok ((b0 - 224) * 4096 + (b1 - 128) * 64 + (b2 - 128) :: t)
            else Raise UnicodeError
        | _ => Raise UnicodeError
        end
      else if (240 <=? b0) && (b0 <? 245) then
        match r0 with
        | b1 :: b2 :: b3 :: r3 =>
            let lo := if b0 =? 240 then 144 else 128 in
            let hi := if b0 =? 244 then 144 else 192 in
            if (lo <=? b1) && (b1 <? hi) && is_cont b2 && is_cont b3 then
              do t <- utf8_decode_fuel fuel' r3;
              Ok ((b0 - 240) * 262144 + (b1 - 128) * 4096 + (b2 - 128) * 64 + (b3 - 128) :: t)
            else Raise UnicodeError
        | _ => Raise UnicodeError
        end
      else Raise UnicodeError
    end
  end.

Definition utf8_decode (bs : list N) : result (list N) := utf8_decode_fuel (length bs) bs.

Lemma utf8_encode_ascii s : Forall (fun c => c < 128) s -> utf8_encode s = Ok s.
Proof.
  induction 1 as [|c r Hc _ IH]; simpl; [reflexivity|].
  unfold utf8_encode_cp. rewrite (proj2 (N.ltb_lt _ _) Hc). simpl. rewrite IH. reflexivity.
Qed.

(* The codec's tests as propositions: lia on the booleans themselves (ZifyBool) is some twenty times dearer to check. *)
Lemma range_iff lo b hi : (lo <=? b) && (b <? hi) = true <-> lo <= b < hi.
Proof. rewrite andb_true_iff, N.leb_le, N.ltb_lt. reflexivity. Qed.

Lemma out_of_range lo b hi : b < lo \/ hi <= b -> (lo <=? b) && (b <? hi) = false.
Proof. rewrite andb_false_iff, N.leb_gt, N.ltb_ge. trivial. Qed.

(* the decoder's window on the second byte, narrowed after the lead bytes k (from below) and k' (from above) *)
Lemma window_iff {b0 b1 k lo' lo k' hi' hi} :
  ((if b0 =? k then lo' else lo) <=? b1) && (b1 <? (if b0 =? k' then hi' else hi)) = true <->
  (b0 = k -> lo' <= b1) /\ (b0 <> k -> lo <= b1) /\ (b0 = k' -> b1 < hi') /\ (b0 <> k' -> b1 < hi).
Proof. rewrite range_iff. destruct (N.eqb_spec b0 k), (N.eqb_spec b0 k'); lia. Qed.

Lemma add_sub_l a d : a + d - a = d.
Proof. rewrite N.add_comm. apply N.add_sub. Qed.

(* Base-64 digits: the whole of the codec's arithmetic. *)
Lemma b64_div h d : d < 64 -> (h * 64 + d) / 64 = h.
Proof. intros H. rewrite N.div_add_l, (N.div_small _ _ H) by discriminate. apply N.add_0_r. Qed.

Lemma b64_mod h d : d < 64 -> (h * 64 + d) mod 64 = d.
Proof. intros H. rewrite N.add_comm, N.mod_add by discriminate. apply N.mod_small, H. Qed.

Lemma b64_split c : exists h d, d < 64 /\ c = h * 64 + d.
Proof.
  exists (c / 64), (c mod 64). split; [apply N.mod_lt; discriminate | rewrite N.mul_comm; apply N.div_mod'].
Qed.

Lemma div_4096 c : c / 4096 = c / 64 / 64.
Proof. rewrite N.div_div by discriminate. reflexivity. Qed.

Lemma div_262144 c : c / 262144 = c / 64 / 64 / 64.
Proof. rewrite !N.div_div by discriminate. reflexivity. Qed.

Lemma horner3 h d1 d0 : h * 4096 + d1 * 64 + d0 = (h * 64 + d1) * 64 + d0.
Proof. ring. Qed.

Lemma horner4 h d2 d1 d0 : h * 262144 + d2 * 4096 + d1 * 64 + d0 = ((h * 64 + d2) * 64 + d1) * 64 + d0.
Proof. ring. Qed.

(* The UTF-8 table: a code point, by its base-64 digits, and its bytes. The bounds on the second byte
   are what excludes overlong forms, surrogates and code points above U+10FFFF. *)
Inductive cp_bytes : N -> list N -> Prop :=
| cp_1 c : c < 128 -> cp_bytes c [c]
| cp_2 h d0 : 2 <= h < 32 -> d0 < 64 -> cp_bytes (h * 64 + d0) [192 + h; 128 + d0]
| cp_3 h d1 d0 : h < 16 -> d1 < 64 -> d0 < 64 -> (h = 0 -> 32 <= d1) -> (h = 13 -> d1 < 32) ->
    cp_bytes (h * 4096 + d1 * 64 + d0) [224 + h; 128 + d1; 128 + d0]
| cp_4 h d2 d1 d0 : h < 5 -> d2 < 64 -> d1 < 64 -> d0 < 64 -> (h = 0 -> 16 <= d2) -> (h = 4 -> d2 < 16) ->
    cp_bytes (h * 262144 + d2 * 4096 + d1 * 64 + d0) [240 + h; 128 + d2; 128 + d1; 128 + d0].

Lemma utf8_encode_cp_sound c a : utf8_encode_cp c = Ok a -> cp_bytes c a.
Proof.
  unfold utf8_encode_cp.
  destruct (b64_split c) as (q & d0 & H0 & E).
  destruct (b64_split q) as (p & d1 & H1 & Eq).
  destruct (b64_split p) as (h & d2 & H2 & Ep).
  (* the bytes in terms of the digits, the tests still about c *)
  rewrite div_4096, div_262144, E, Eq, Ep, !b64_div, !b64_mod by assumption.
  rewrite <- Ep, <- Eq, <- E.
  destruct (N.ltb_spec c 128). { intros <-%Ok_inj. apply cp_1. assumption. }
  destruct (N.ltb_spec c 2048). { intros <-%Ok_inj. rewrite E. apply cp_2; lia. }
  destruct (N.ltb_spec c 65536).
  { destruct (_ && _) eqn:Es; [discriminate|]. apply not_true_iff_false in Es. rewrite range_iff in Es.
    intros <-%Ok_inj. rewrite E, Eq, <- horner3. apply cp_3; lia. }
  destruct (N.ltb_spec c 1114112); [|discriminate]. intros <-%Ok_inj. rewrite E, Eq, Ep, <- horner4. apply cp_4; lia.
Qed.

Lemma utf8_encode_cp_complete c a : cp_bytes c a -> utf8_encode_cp c = Ok a.
Proof.
  unfold utf8_encode_cp. destruct 1.
  - rewrite (proj2 (N.ltb_lt _ _)) by assumption. reflexivity.
  - rewrite b64_div, b64_mod by assumption.
    rewrite (proj2 (N.ltb_ge _ 128)), (proj2 (N.ltb_lt _ 2048)) by lia. reflexivity.
  - rewrite horner3, div_4096, !b64_div, !b64_mod by assumption.
    rewrite (proj2 (N.ltb_ge _ 128)), (proj2 (N.ltb_ge _ 2048)), (proj2 (N.ltb_lt _ 65536)), (out_of_range 55296) by lia.
    reflexivity.
  - rewrite horner4, div_4096, div_262144, !b64_div, !b64_mod by assumption.
    rewrite (proj2 (N.ltb_ge _ 128)), (proj2 (N.ltb_ge _ 2048)), (proj2 (N.ltb_ge _ 65536)), (proj2 (N.ltb_lt _ 1114112)) by lia.
    reflexivity.
Qed.

Lemma utf8_encode_cons_inv c r bs : utf8_encode (c :: r) = Ok bs ->
  exists a b, cp_bytes c a /\ utf8_encode r = Ok b /\ bs = a ++ b.
Proof.
  cbn [utf8_encode]. intros H. apply bind_ok_inv in H as (a & Ha & H). apply bind_ok_inv in H as (b & Hb & <-%Ok_inj).
  exists a, b. auto using utf8_encode_cp_sound.
Qed.

Lemma cp_bytes_length c a : cp_bytes c a -> (1 <= length a)%nat.
Proof. destruct 1; cbn [length]; lia. Qed.

Lemma cp_bytes_single c a : cp_bytes c a -> length a = 1%nat -> a = [c] /\ c < 128.
Proof. destruct 1; cbn [length]; intros L; [auto | lia ..]. Qed.

(* the converse of utf8_encode_ascii: every code point takes at least one byte, and one only below 128 *)
Lemma utf8_encode_ascii_inv s : forall bs, utf8_encode s = Ok bs -> (length bs <= length s)%nat ->
  bs = s /\ Forall (fun c => c < 128) s.
Proof.
  induction s as [|c r IH]; intros bs H L.
  - apply Ok_inj in H as <-. auto.
  - apply utf8_encode_cons_inv in H as (a & b & Ha & Hb & ->).
    simpl in L. rewrite app_length in L. pose proof (cp_bytes_length _ _ Ha) as L1.
    destruct (IH b Hb) as [-> Hr]; [lia|]. destruct (cp_bytes_single _ _ Ha) as [-> Hc]; [lia|]. auto.
Qed.
