(* The allocation engine of model/Alloc.v: what a successful run guarantees (through the invariant `takable`), when a run
   fails or cannot fail, and that the order in which carried indices are met does not matter.  The tables' constants come
   in with C09_proofs. *)
From Coq Require Import String NArith List Bool Lia PeanoNat Permutation.
From RC Require Import lib.Result model.Alloc.
Import ListNotations.
Local Open Scope N_scope.

Lemma memN_in k l : memN k l = true <-> In k l.
Proof.
  unfold memN. rewrite existsb_exists. split.
  - intros (x & Hx & He). apply N.eqb_eq in He. subst. assumption.
  - intros H. exists k. split; [assumption | apply N.eqb_refl].
Qed.

Lemma memN_false k l : memN k l = false <-> ~ In k l.
Proof. rewrite <- memN_in. destruct (memN k l); split; intros; congruence. Qed.

Lemma memN_ext k l l' : (forall x, In x l <-> In x l') -> memN k l = memN k l'.
Proof. intros H. apply eq_true_iff_eq. rewrite !memN_in. apply H. Qed.

Lemma removeN_in k l x : In x (removeN k l) <-> In x l /\ x <> k.
Proof.
  unfold removeN. rewrite filter_In. rewrite negb_true_iff, N.eqb_neq. tauto.
Qed.

Lemma removeN_nodup k l : NoDup l -> NoDup (removeN k l).
Proof. apply NoDup_filter. Qed.

Lemma removeN_comm a b l : removeN a (removeN b l) = removeN b (removeN a l).
Proof. apply filter_comm. Qed.

Lemma removeN_length k l : (length (removeN k l) <= length l)%nat.
Proof. unfold removeN. induction l as [|x l IH]; simpl; [lia | destruct (negb (x =? k)); simpl; lia]. Qed.

(* l can be taken one id after the other, each not yet in use: distinct ids, none of them used.  The engine keeps
   this of its free list, and establishes it of the ids it places. *)
Fixpoint takable (used l : list N) : Prop :=
  match l with [] => True | i :: l' => ~ In i used /\ takable (i :: used) l' end.

Lemma takable_spec l : forall used, takable used l <-> NoDup l /\ forall i, In i l -> ~ In i used.
Proof.
  induction l as [|x l IH]; intros used; simpl.
  - split; [split; [constructor | tauto] | tauto].
  - rewrite IH, NoDup_cons_iff. simpl. split.
    + intros (Hx & Hnd & Hd). repeat split; auto.
      * intros Hin. apply (Hd x Hin). left. reflexivity.
      * intros i [<-|Hi]; [assumption|]. intros Hu. apply (Hd i Hi). right. assumption.
    + intros ((Hx & Hnd) & Hd). repeat split; auto. intros i Hi [<-|Hu]; [contradiction | apply (Hd i); auto].
Qed.

Lemma takable_remove k used free : takable used free -> takable (k :: used) (removeN k free).
Proof.
  rewrite !takable_spec. intros [Hnd Hd]. split; [apply removeN_nodup; assumption|].
  intros i Hi [<-|Hu]; apply removeN_in in Hi as [Hi Hne]; [congruence | apply (Hd i); assumption].
Qed.

Definition in_range (rg : option (N * N)) (k : N) : bool :=
  match rg with Some (lo, hi) => negb ((k <? lo) || (hi <? k)) | None => true end.

Lemma range_match_negb_in_range rg k :
  match rg with Some (lo, hi) => (k <? lo) || (hi <? k) | None => false end = negb (in_range rg k).
Proof. destruct rg as [[lo hi]|]; simpl; [rewrite negb_involutive|]; reflexivity. Qed.

Definition outcome_fits (r : request) (o : outcome) : Prop :=
  match r, o with
  | RCarry k, Placed i => i = k
  | RCarry _, Dropped | RCarry _, Unplaced => True
  | RFresh, Placed _ | RFresh, Unplaced => True
  | RSkip, Reused | RSkip, Unplaced => True
  | _, _ => False
  end.

Lemma unplaced_placed (reqs : list request) : placed_ids (map (fun _ => Unplaced) reqs) = [].
Proof. induction reqs; simpl; auto. Qed.

Lemma unplaced_fresh (reqs : list request) : fresh_ids reqs (map (fun _ => Unplaced) reqs) = [].
Proof. induction reqs as [|r reqs IH]; simpl; [reflexivity | destruct r; exact IH]. Qed.

Lemma unplaced_fits (reqs : list request) : Forall2 outcome_fits reqs (map (fun _ => Unplaced) reqs).
Proof. induction reqs as [|r reqs IH]; simpl; constructor; [destruct r; exact I | exact IH]. Qed.

(* the editors' mode, carry_checks_used = true: a carried index is placed only when unused *)
Lemma engine_sound b rg : forall reqs used free outs,
  engine b true rg reqs used free = Ok outs -> takable used free ->
  Forall2 outcome_fits reqs outs /\ takable used (placed_ids outs).
Proof.
  induction reqs as [|r rest IH]; intros used free outs H Hinv; [inversion H; split; constructor|].
  cbn [engine] in H. destruct r as [k| |].
  - rewrite range_match_negb_in_range in H. destruct (in_range rg k); [|discriminate]. cbn [negb andb] in H.
    destruct (memN k used) eqn:Ek; inv_bind H as o Ho Hk; inversion Hk; subst outs.
    + destruct (IH _ _ _ Ho Hinv) as [F T]. exact (conj (Forall2_cons (RCarry k) Dropped I F) T).
    + destruct (IH _ _ _ Ho (takable_remove k _ _ Hinv)) as [F T]. apply memN_false in Ek.
      exact (conj (Forall2_cons (RCarry k) (Placed k) eq_refl F) (conj Ek T)).
  - destruct free as [|f free'].
    + destruct b; [|discriminate]. injection H as <-. simpl. rewrite unplaced_placed.
      split; [constructor; [exact I | apply unplaced_fits] | exact I].
    + inv_bind H as o Ho Hk. inversion Hk; subst outs. destruct Hinv as [Hf Hinv].
      destruct (IH _ _ _ Ho Hinv) as [F T]. exact (conj (Forall2_cons RFresh (Placed f) I F) (conj Hf T)).
  - inv_bind H as o Ho Hk. inversion Hk; subst outs.
    destruct (IH _ _ _ Ho Hinv) as [F T]. exact (conj (Forall2_cons RSkip Reused I F) T).
Qed.

Lemma engine_fresh_sound b c rg : forall reqs used free outs,
  engine b c rg reqs used free = Ok outs -> NoDup free ->
  (forall i, In i (fresh_ids reqs outs) -> In i free) /\ NoDup (fresh_ids reqs outs).
Proof.
  induction reqs as [|r rest IH]; intros used free outs H Hnd; [inversion H; split; [intros i [] | constructor]|].
  cbn [engine] in H. destruct r as [k| |].
  - rewrite range_match_negb_in_range in H. destruct (in_range rg k); [|discriminate]. cbn [negb] in H.
    destruct (c && memN k used); inv_bind H as o Ho Hk; inversion Hk; subst outs; simpl; [eapply IH; eauto|].
    destruct (IH _ _ _ Ho (removeN_nodup k free Hnd)) as [A B]. split; [|assumption].
    intros i Hi. apply A in Hi. apply removeN_in in Hi. tauto.
  - destruct free as [|f free'].
    + destruct b; [|discriminate]. injection H as <-. simpl. rewrite unplaced_fresh. split; [intros i [] | constructor].
    + inv_bind H as o Ho Hk. inversion Hk; subst outs. inversion Hnd as [|? ? Hf Hnd']; subst.
      destruct (IH _ _ _ Ho Hnd') as [A B]. simpl. split.
      * intros i [<-|Hi]; [left; reflexivity | right; apply A; assumption].
      * constructor; [|assumption]. intros Hin. apply A in Hin. contradiction.
  - inv_bind H as o Ho Hk. inversion Hk; subst outs. simpl. eapply IH; eauto.
Qed.

(* the SWNM rebuilder's mode: a carried number always takes its slot *)
Lemma engine_carry_always_placed : forall reqs used free outs,
  engine false false None reqs used free = Ok outs ->
  Forall2 (fun r o => forall k, r = RCarry k -> o = Placed k) reqs outs.
Proof.
  induction reqs as [|r rest IH]; intros used free outs H; simpl in H; [inversion H; constructor|].
  destruct r as [k| |].
  - inv_bind H as o Ho Hk. inversion Hk. constructor; [|eapply IH; eauto]. intros k' E. inversion E. reflexivity.
  - destruct free as [|f free']; [discriminate|].
    inv_bind H as o Ho Hk. inversion Hk. constructor; [discriminate | eapply IH; eauto].
  - inv_bind H as o Ho Hk. inversion Hk. constructor; [discriminate | eapply IH; eauto].
Qed.

Lemma range_from_in lo n x : In x (range_from lo n) <-> lo <= x /\ x < lo + N.of_nat n.
Proof.
  revert lo; induction n as [|n IH]; intros lo; simpl.
  - split; [intros [] | lia].
  - rewrite IH. split.
    + intros [<-|[H1 H2]]; lia.
    + intros [H1 H2]. destruct (N.eq_dec lo x) as [->|Hne]; [left; reflexivity | right; lia].
Qed.

Lemma range_from_nodup lo n : NoDup (range_from lo n).
Proof.
  revert lo; induction n as [|n IH]; intros lo; simpl; constructor; [|apply IH].
  rewrite range_from_in. lia.
Qed.

Lemma free_ids_spec lo count reserved used x :
  In x (free_ids lo count reserved used) <->
  lo <= x /\ x < lo + count /\ ~ In x used /\ ~ In x reserved.
Proof.
  unfold free_ids. rewrite filter_In, range_from_in, andb_true_iff, !negb_true_iff, !memN_false.
  rewrite N2Nat.id. tauto.
Qed.

Lemma free_ids_nodup lo count reserved used : NoDup (free_ids lo count reserved used).
Proof. unfold free_ids. apply NoDup_filter. apply range_from_nodup. Qed.

Lemma free_ids_takable lo count reserved used : takable used (free_ids lo count reserved used).
Proof. apply takable_spec. split; [apply free_ids_nodup|]. intros i Hi. apply free_ids_spec in Hi. tauto. Qed.

Definition is_carry (r : request) : bool := match r with RCarry _ => true | _ => false end.

Lemma engine_no_carry_fresh b c rg : forall reqs used free outs,
  forallb (fun r => negb (is_carry r)) reqs = true ->
  engine b c rg reqs used free = Ok outs ->
  exists n, fresh_ids reqs outs = firstn n free.
Proof.
  induction reqs as [|r rest IH]; intros used free outs Hnc H; [inversion H; exists 0%nat; reflexivity|].
  simpl in Hnc. apply andb_true_iff in Hnc as [Hr Hnc]. cbn [engine] in H.
  destruct r as [k| |]; [discriminate| |].
  - destruct free as [|f free'].
    + destruct b; [|discriminate]. injection H as <-. exists 0%nat. apply (unplaced_fresh rest).
    + inv_bind H as o Ho Hk. inversion Hk; subst outs.
      destruct (IH _ _ _ Hnc Ho) as [n Hn]. exists (S n). simpl. rewrite Hn. reflexivity.
  - inv_bind H as o Ho Hk. inversion Hk; subst outs. apply (IH _ _ _ Hnc Ho).
Qed.

Definition remove_all (ks : list N) (l : list N) : list N := fold_left (fun acc k => removeN k acc) ks l.

Lemma remove_all_perm ks ks' : Permutation ks ks' -> forall l, remove_all ks l = remove_all ks' l.
Proof.
  induction 1 as [|k ks ks' _ IH|k k' ks|ks ks' ks'' _ IH1 _ IH2]; intros l; simpl.
  - reflexivity.
  - apply IH.
  - rewrite removeN_comm. reflexivity.
  - rewrite IH1. apply IH2.
Qed.

Lemma forallb_perm {A} (f : A -> bool) l l' : Permutation l l' -> forallb f l = forallb f l'.
Proof. induction 1; simpl; [reflexivity | congruence | destruct (f x), (f y); reflexivity | congruence]. Qed.

(* `used` matters only as a set *)
Lemma engine_used_ext b c rg : forall reqs used used' free,
  (forall x, In x used <-> In x used') -> engine b c rg reqs used free = engine b c rg reqs used' free.
Proof.
  induction reqs as [|r rest IH]; intros used used' free Heq; [reflexivity|].
  assert (forall i x, In x (i :: used) <-> In x (i :: used')) as Hcons by (intros i x; simpl; rewrite Heq; tauto).
  cbn [engine]. destruct r as [k| |].
  - rewrite (memN_ext k used used' Heq), (IH used used' free Heq), (IH (k :: used) (k :: used') _ (Hcons k)). reflexivity.
  - destruct free as [|f free']; [reflexivity|]. rewrite (IH (f :: used) (f :: used') _ (Hcons f)). reflexivity.
  - rewrite (IH used used' free Heq). reflexivity.
Qed.

(* the editors' mode, either way of being full, with or without a range: distinct, unused, in-range carried indices at the
   front are all placed, whatever the free list holds *)
Lemma engine_carried_prefix_gen b rg : forall ks rest used free,
  NoDup ks -> (forall k, In k ks -> ~ In k used) -> (forall k, In k ks -> in_range rg k = true) ->
  engine b true rg (map RCarry ks ++ rest) used free =
  (do o <- engine b true rg rest (rev ks ++ used) (remove_all ks free); Ok (map Placed ks ++ o)).
Proof.
  induction ks as [|k ks IH]; intros rest used free Hnd Hun Hrg.
  - simpl. destruct (engine b true rg rest used free); reflexivity.
  - inversion Hnd as [|? ? Hk Hnd']; subst. cbn [map app engine].
    rewrite range_match_negb_in_range, (Hrg k (or_introl eq_refl)), (proj2 (memN_false k used) (Hun k (or_introl eq_refl))).
    cbn [negb andb]. rewrite IH; auto.
    + simpl. rewrite <- app_assoc. simpl.
      destruct (engine b true rg rest (rev ks ++ k :: used) (remove_all ks (removeN k free))); reflexivity.
    + intros k' Hk' [<-|Hu]; [contradiction | eapply Hun; [right; exact Hk' | exact Hu]].
    + intros k' Hk'. apply Hrg. right. assumption.
Qed.

(* the order of such a prefix does not matter to whatever follows: both runs continue from the same free list and the
   same set of used ids *)
Lemma carried_prefix_perm b rg ks ks' rest used free :
  Permutation ks ks' -> NoDup ks -> (forall k, In k ks -> ~ In k used) -> (forall k, In k ks -> in_range rg k = true) ->
  exists tail,
    engine b true rg (map RCarry ks ++ rest) used free = (do o <- tail; Ok (map Placed ks ++ o)) /\
    engine b true rg (map RCarry ks' ++ rest) used free = (do o <- tail; Ok (map Placed ks' ++ o)).
Proof.
  intros P Hnd Hun Hrg. eexists. split; [apply engine_carried_prefix_gen; assumption|].
  rewrite (engine_carried_prefix_gen b rg ks');
    [| rewrite <- P; assumption | intros k Hk; rewrite <- P in Hk; auto | intros k Hk; rewrite <- P in Hk; auto].
  rewrite (remove_all_perm ks ks' P free).
  rewrite (engine_used_ext b true rg rest (rev ks ++ used) (rev ks' ++ used))
    by (intros x; rewrite !in_app_iff, <- !in_rev, P; reflexivity).
  reflexivity.
Qed.

Lemma fresh_ids_carried l r o : fresh_ids (map RCarry l ++ r) (map Placed l ++ o) = fresh_ids r o.
Proof. induction l; simpl; auto. Qed.

Lemma placed_ids_carried l o : placed_ids (map Placed l ++ o) = l ++ placed_ids o.
Proof. induction l as [|x l IH]; simpl; [reflexivity | rewrite IH; reflexivity]. Qed.

Lemma skipn_carried l (o : list outcome) : skipn (length l) (map Placed l ++ o) = o.
Proof. induction l; simpl; auto. Qed.

(* every editor (carry_checks_used = true; raising or leaving unplaced when full; with or without a range): two iteration
   orders of the same objects - distinct unused in-range carried indices, then n index-less objects - give the same
   verdict, the same list of new ids, the same set of occupied slots and the same outcomes for the index-less objects,
   hence the same number left unplaced *)
Theorem order_independent_gen b rg ks ks' n used free :
  Permutation ks ks' -> NoDup ks -> (forall k, In k ks -> ~ In k used) -> (forall k, In k ks -> in_range rg k = true) ->
  match engine b true rg (map RCarry ks ++ repeat RFresh n) used free,
        engine b true rg (map RCarry ks' ++ repeat RFresh n) used free with
  | Ok o, Ok o' =>
      fresh_ids (map RCarry ks ++ repeat RFresh n) o = fresh_ids (map RCarry ks' ++ repeat RFresh n) o' /\
      Permutation (placed_ids o) (placed_ids o') /\
      skipn (length ks) o = skipn (length ks') o'
  | Raise _, Raise _ => True
  | _, _ => False
  end.
Proof.
  intros P Hnd Hun Hrg.
  destruct (carried_prefix_perm b rg ks ks' (repeat RFresh n) used free P Hnd Hun Hrg) as ([o|e] & -> & ->); simpl; [|exact I].
  rewrite !fresh_ids_carried, !placed_ids_carried, !skipn_carried.
  split; [reflexivity | split; [apply Permutation_app_tail; assumption | reflexivity]].
Qed.

Definition count_fresh (reqs : list request) : nat :=
  length (filter (fun r => match r with RFresh => true | _ => false end) reqs).

Lemma count_fresh_cons r rest :
  count_fresh (r :: rest) = ((match r with RFresh => 1 | _ => 0 end) + count_fresh rest)%nat.
Proof. unfold count_fresh. destruct r; reflexivity. Qed.

(* raise mode: more fresh requests than free ids => the call raises *)
Lemma engine_exhausted c rg : forall reqs used free,
  (length free < count_fresh reqs)%nat -> exists e, engine false c rg reqs used free = Raise e.
Proof.
  induction reqs as [|r rest IH]; intros used free Hlt; [unfold count_fresh in Hlt; simpl in Hlt; lia|].
  rewrite count_fresh_cons in Hlt. cbn [engine]. destruct r as [k| |]; simpl in Hlt.
  - rewrite range_match_negb_in_range. destruct (in_range rg k); cbn [negb]; [|eauto].
    destruct (c && memN k used).
    + destruct (IH used free) as [e ->]; [lia | simpl; eauto].
    + destruct (IH (k :: used) (removeN k free)) as [e ->];
        [pose proof (removeN_length k free); lia | simpl; eauto].
  - destruct free as [|f free']; [eauto|].
    destruct (IH (f :: used) free') as [e ->]; [simpl in Hlt; lia | simpl; eauto].
  - destruct (IH used free) as [e ->]; [lia | simpl; eauto].
Qed.

Lemma engine_no_fresh_ok b c rg : forall reqs used free,
  (forall k, In (RCarry k) reqs -> in_range rg k = true) ->
  count_fresh reqs = 0%nat -> exists outs, engine b c rg reqs used free = Ok outs.
Proof.
  induction reqs as [|r rest IH]; intros used free Hrg H0; [simpl; eauto|].
  assert (forall k, In (RCarry k) rest -> in_range rg k = true) as Hrg' by (intros k Hk; apply Hrg; right; assumption).
  cbn [engine].
  rewrite count_fresh_cons in H0. destruct r as [k| |]; simpl in H0; try discriminate.
  - rewrite range_match_negb_in_range, (Hrg k (or_introl eq_refl)). cbn [negb]. destruct (c && memN k used).
    + destruct (IH used free Hrg' H0) as [o ->]. simpl. eauto.
    + destruct (IH (k :: used) (removeN k free) Hrg' H0) as [o ->]. simpl. eauto.
  - destruct (IH used free Hrg' H0) as [o ->]. simpl. eauto.
Qed.

(* what was placed, paired with what asked for it: the rebuilders' `combine order outs` *)
Definition placed_of {A} (order : list A) (outs : list outcome) : list (A * N) :=
  flat_map (fun p => match snd p with Placed i => [(fst p, i)] | _ => [] end) (combine order outs).

Lemma placed_of_in {A} (order : list A) outs q j :
  In (q, j) (placed_of order outs) <-> In (q, Placed j) (combine order outs).
Proof.
  unfold placed_of. rewrite in_flat_map. split.
  - intros ([q0 o] & Hin & H). cbn [fst snd] in H. destruct o; try contradiction. destruct H as [H|[]]. inversion H; subst. exact Hin.
  - intros H. exists (q, Placed j). split; [exact H | left; reflexivity].
Qed.

Lemma placed_of_ids {A} (order : list A) outs j : In j (map snd (placed_of order outs)) -> In j (placed_ids outs).
Proof.
  intros H. apply in_map_iff in H as ([q j'] & <- & H). apply placed_of_in, in_combine_r in H.
  apply in_flat_map. exists (Placed j'). split; [exact H | left; reflexivity].
Qed.

Lemma placed_of_nodup {A} (order : list A) : forall outs, NoDup (placed_ids outs) -> NoDup (map snd (placed_of order outs)).
Proof.
  induction order as [|x order IH]; intros [|o outs] H; try constructor.
  change (placed_of (x :: order) (o :: outs))
    with (match o with Placed i => [(x, i)] | _ => [] end ++ placed_of order outs).
  destruct o; try (apply IH; exact H). inversion H as [|? ? Hnot Hnd]; subst. constructor; [|apply IH; exact Hnd].
  intros Hc. apply Hnot. eapply placed_of_ids. exact Hc.
Qed.

Lemma placed_of_map {A B} (f : A -> N -> B) (order : list A) outs :
  flat_map (fun p => match snd p with Placed i => [f (fst p) i] | _ => [] end) (combine order outs)
  = map (fun q => f (fst q) (snd q)) (placed_of order outs).
Proof.
  unfold placed_of. induction (combine order outs) as [|[q o] t IH]; simpl; [reflexivity|].
  destruct o; simpl; rewrite IH; reflexivity.
Qed.
