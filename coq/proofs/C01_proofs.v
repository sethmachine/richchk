(* The chunk loop terminates (OutOfFuel is unreachable for every byte string), the CHK round trip at the fuel
   chk_decode uses, and a concrete well-formed CHK. *)
From Coq Require Import String NArith List Bool Lia PeanoNat.
From RC Require Import lib.Result lib.Bytes lib.Tree model.Layout model.Str model.ChkIo proofs.Layout_proofs
  proofs.ChkIo_proofs gen.GenLayouts.
Import ListNotations.
Local Open Scope N_scope.

Lemma decode_one_no_oof name payload : decode_one name payload <> Raise OutOfFuel.
Proof.
  intros H. pose proof (decode_one_eq name) as E.
  destruct (lookup_name name section_table) as [[s [w|dec enc]]|].
  - destruct E as [_ E]. rewrite E in H. apply bind_ret_raise_inv in H.
    destruct (Str_proofs.str_decode_raises _ _ _ H); discriminate.
  - destruct E as (_ & _ & Hwf & E). rewrite E in H. apply bind_ret_raise_inv in H.
    exact (decode_no_oof _ _ _ Hwf (Nat.lt_succ_diag_r _) H).
  - rewrite E in H. discriminate.
Qed.

(* each turn of the chunk loop takes at least the eight bytes of its header *)
Lemma chk_decode_no_oof : forall fuel bs, (length bs < fuel)%nat -> chk_decode_fuel fuel bs <> Raise OutOfFuel.
Proof.
  induction fuel as [|fuel IH]; intros bs Hl H; [lia|].
  destruct bs as [|b0 bs0]; [discriminate|].
  destruct (chk_decode_turn fuel b0 bs0) as [E|(name & szb & body & E & Hn & Hz)].
  - rewrite E in H. discriminate.
  - rewrite E in *.
    rewrite chk_decode_step in H by assumption. cbv zeta in H.
    apply bind_raise_inv in H as [H | (sec & _ & H)]; [exact (decode_one_no_oof _ _ H)|].
    apply bind_ret_raise_inv in H. apply IH in H; [assumption|].
    destruct (read_n_split (le_decode szb) body) as [Eb _]. apply (f_equal (@length N)) in Eb.
    rewrite !app_length in *. lia.
Qed.

Theorem chk_decode_terminates bs : chk_decode bs <> Raise OutOfFuel.
Proof. unfold chk_decode. apply chk_decode_no_oof. lia. Qed.

Theorem chk_roundtrip bs secs :
  wf_chk bs -> bytes_ok bs -> chk_decode bs = Ok secs -> chk_encode secs = Ok bs.
Proof. intros Hwf Hok H. exact (chk_roundtrip_wf bs Hwf Hok _ _ H). Qed.

(* non-vacuity: a concrete well-formed CHK with an exotic unknown name, a duplicated empty section,
   a 1-location MRGN and a UPUS section; it decodes to five sections *)
Definition example_chk : bytes :=
  frame [255; 0; 195; 169] [1; 2; 3] ++
  frame [81; 81; 81; 81] [] ++ frame [81; 81; 81; 81] [] ++
  frame (codes_of_string "MRGN") (repeat 7 20) ++
  frame (codes_of_string "UPUS") (repeat 1 64) ++ [].

Lemma example_chk_wf : wf_chk example_chk /\ bytes_ok example_chk.
Proof.
  split.
  - unfold example_chk.
    (* legal_payload computes to True (no row), or to a disjunction one side of which is an identity *)
    do 5 (apply wf_chk_cons; [reflexivity | reflexivity | vm_compute; auto | ]).
    apply wf_chk_nil.
  - apply bytes_okb_spec. vm_compute. reflexivity.
Qed.

Lemma example_chk_decodes : exists secs, chk_decode example_chk = Ok secs /\ length secs = 5%nat.
Proof. eexists. split; [vm_compute; reflexivity | reflexivity]. Qed.

