(* C02, "every numeric setting keeps its value, every string reference resolves to the same text", for one trigger entry
   of ANY registered type through an unedited load and save: the record written back holds, field by field, the same type
   number, the same five flag bits, the same number where a plain number or an enumeration member was read, a string
   number resolving to the same text where a string was read, and 0 in the fields the type does not use (recorded finding
   unused-fields-zeroed: the format says the game ignores them for this type). *)
From Coq Require Import String NArith List Bool Lia PeanoNat.
From RC Require Import lib.Result lib.Bytes model.Layout model.Flags model.TrigTable model.RichCodec model.Str
  proofs.Flags_proofs proofs.C03_proofs proofs.C05_proofs proofs.Entries proofs.C04_readback proofs.C12_proofs
  proofs.Save_strings gen.GenTrig spec.SpecTrig gen.GenFlags gen.GenEnums.
Import ListNotations.
Local Open Scope string_scope.
Local Open Scope list_scope.
Local Open Scope N_scope.

(* the one computed field is fed by the argument "_duration_ms" *)
Definition spec_wav_ok (s : spec_entry) : bool :=
  forallb (fun row => let '(a, c, f) := row in
             negb (src_eqb (expected_src s f) EWavDuration) || String.eqb a "_duration_ms") (se_args s).

Section Survive.
  Variable table : list trig_entry.
  Variable spec : list spec_entry.
  Variable fields : list string.
  Variable idf enum : string.
  Variable flagc : flag_codec.

  Hypothesis Hmatch : tables_match fields table spec = true.
  Hypothesis Hspec : forallb (spec_entry_ok fields idf) spec = true.
  Hypothesis Hwav : forallb spec_wav_ok spec = true.
  Hypothesis Hnd : NoDup fields.
  Hypothesis Hidf : In idf fields /\ idf <> "_flags".
  Hypothesis Hfl : In "_flags" fields.
  Hypothesis Hflags : forall x, x < 256 -> num_roundtrip flagc 5 x.

  Theorem rich_entry_values_survive cx cx' v key args fl v' :
    decode_entry_of cx table enum idf flagc fields v = Ok (Some (ERich key args fl)) ->
    encode_entry_of cx' table flagc fields (ERich key args fl) = Ok v' ->
    vint "_flags" v < 256 ->
    exists te s,
      find_entry key table = Some te /\ In s spec /\ se_id s = key /\
      vint idf v' = vint idf v /\
      vint "_flags" v' = vint "_flags" v mod 2 ^ 5 /\
      (forall a c f, In (a, c, f) (te_dec te) ->
         exists x, dec_arg cx c (vint f v) = Ok x /\
                   (enc_arg cx' c x = Ok (vint f v') \/ (c = CRaw /\ vint f v' = vint f v))) /\
      (forall f, In f fields -> f <> "_flags" -> expected_src s f = EZero -> vint f v' = 0) /\
      (forall x, In x (te_dec te) <-> In x (se_args s)) /\
      (exists r', v' = rec_val fields r').
  Proof using Hmatch Hspec Hwav Hnd Hidf Hfl Hflags.
    intros Hd He Hsmall.
    apply decode_entry_of_inv in Hd as (-> & En & E0 & te & Hf & Hargs & Hfl0).
    destruct (written_fields _ _ _ _ Hmatch _ _ _ _ _ He) as (te' & s & fx & Hf' & Hs & Hkey & M & Hfx & Hr & Hw).
    rewrite Hf in Hf'. inversion Hf'; subst te'. clear Hf'.
    pose proof (spec_ok_own_id _ _ _ Hspec) as Hown.
    rewrite forallb_forall in Hspec, Hwav. destruct (spec_entry_ok_facts _ _ _ (Hspec _ Hs)) as [_ Hrows].
    pose proof (Hwav _ Hs) as Hwv. unfold spec_wav_ok in Hwv. rewrite forallb_forall in Hwv.
    exists te, s. split; [exact Hf|]. split; [exact Hs|]. split; [exact Hkey|].
    split; [exact (written_id_field _ _ _ _ Hmatch _ _ _ _ _ _ He (proj1 Hidf) (proj2 Hidf) Hown)|].
    split.
    { rewrite (Hw "_flags" Hfl : _ = fx).
      destruct (flags_roundtrip _ _ _ (Hflags _ Hsmall)) as (bs & Hbs & Hto). congruence. }
    split.
    { intros a c f Hrow. pose proof (proj1 (m_dec M _) Hrow) as Hsa.
      destruct (decode_entry_arg _ _ _ _ _ _ _ _ Hargs (m_dec_nodup M) Hrow) as (n & x & Hn & Hx & Hget).
      destruct (Hrows _ _ _ Hsa) as (Hinf & Hnf & Hsrc).
      rewrite rec_get_val_rec in Hn by assumption. inversion Hn; subst n.
      exists x. split; [assumption|]. specialize (Hw f Hinf). rewrite Hnf in Hw.
      destruct Hsrc as [Hsrc | [Hsrc ->]]; rewrite Hsrc in Hw; cbn [src_val] in Hw.
      + left. rewrite Hget in Hw. exact Hw.
      + (* the play time: written from the argument it was read into *)
        right. split; [reflexivity|]. pose proof (Hwv _ Hsa) as Ha. cbv beta iota in Ha. rewrite Hsrc in Ha.
        apply String.eqb_eq in Ha. subst a. cbn [dec_arg] in Hx. inversion Hx; subst x.
        destruct (wav_duration_inv _ _ _ Hw) as [Hd|Hd]; congruence. }
    split.
    { intros f Hinf Hne%String.eqb_neq Hz. specialize (Hw f Hinf). rewrite Hne, Hz in Hw. cbn in Hw. congruence. }
    exact (conj (m_dec M) Hr).
  Qed.
End Survive.

Lemma action_wav_ok : forallb spec_wav_ok spec_action_table = true.
Proof. vm_compute. reflexivity. Qed.
Lemma condition_wav_ok : forallb spec_wav_ok spec_condition_table = true.
Proof. vm_compute. reflexivity. Qed.

Definition action_values_survive :=
  rich_entry_values_survive _ _ _ _ "TriggerActionId" _ action_table_matches action_spec_ok action_wav_ok
    (proj1 record_fields_nodup) action_id_field action_flags_field (fun x _ => action_flags_num x).

Definition condition_values_survive :=
  rich_entry_values_survive _ _ _ _ "TriggerConditionId" _ condition_table_matches condition_spec_ok condition_wav_ok
    (proj2 record_fields_nodup) condition_id_field condition_flags_field (fun x _ => condition_flags_num x).

Lemma numeric_codec_same_number cx cx' c n x n' :
  (c = CRaw \/ exists E, c = CEnum E) -> dec_arg cx c n = Ok x -> enc_arg cx' c x = Ok n' -> n' = n.
Proof.
  intros [->|[E ->]] Hd He; cbn [dec_arg] in Hd.
  - inversion Hd; subst x. cbn [enc_arg] in He. inversion He. reflexivity.
  - destruct (enum_has E n); [|discriminate]. inversion Hd; subst x. cbn [enc_arg] in He. inversion He. reflexivity.
Qed.

Lemma string_codec_same_text cx cx' n x n' :
  N.of_nat (length (sl_by_id (cx_str cx'))) <= 1000000 ->
  dec_arg cx CStr n = Ok x -> enc_arg cx' CStr x = Ok n' -> str_by_id (cx_str cx') n' = str_by_id (cx_str cx) n.
Proof.
  intros Hsmall Hd He. cbn [dec_arg] in Hd. inversion Hd; subst x. cbn [enc_arg] in He.
  destruct (id_by_str_resolves _ _ _ Hsmall He) as [H _]. exact H.
Qed.
