(* C02 / C03, one whole trigger through an unedited load and save: when its condition and action lists have no gap (no empty
   entry before a used one - the form every editor writes; the gap case is the recorded finding interior-gap-compacted),
   every entry is written back AT ITS OWN POSITION as the encoding of what was decoded there, and every empty position as
   the all-zero entry.  One level up, every trigger of an unedited TRIG section stays at its position. *)
From Coq Require Import String NArith List Bool Lia PeanoNat.
From RC Require Import lib.Result lib.Bytes model.Layout model.Flags model.TrigTable model.RichCodec proofs.Entries
  gen.GenTrig gen.GenFlags gen.GenConsts.
Import ListNotations.
Local Open Scope string_scope.
Local Open Scope list_scope.
Local Open Scope N_scope.

Definition gap_free {A} (os : list (option A)) : Prop :=
  forall j k, (j < k)%nat -> nth_error os j = Some None -> forall e, nth_error os k <> Some (Some e).

Lemma gap_free_tail {A} (o : option A) r : gap_free (o :: r) -> gap_free r.
Proof. intros H j k Hjk Hj e. apply (H (S j) (S k)); [lia | exact Hj]. Qed.

Lemma somes_all_none {A} (r : list (option A)) : (forall k e, nth_error r k <> Some (Some e)) -> somes r = [].
Proof.
  induction r as [|o r IH]; intros H; [reflexivity|]. destruct o as [x|].
  - exfalso. apply (H 0%nat x). reflexivity.
  - simpl. apply IH. intros k e. apply (H (S k) e).
Qed.

Lemma somes_length_le {A} (os : list (option A)) : (length (somes os) <= length os)%nat.
Proof. induction os as [|[x|] r IH]; simpl; lia. Qed.

(* a gap-free list is all None from its first None on *)
Lemma somes_short_at_gap {A} : forall (os : list (option A)) k,
  gap_free os -> nth_error os k = Some None -> (length (somes os) <= k)%nat.
Proof.
  induction os as [|[x|] r IH]; intros k Hg Hn; [destruct k; discriminate| |].
  - destruct k as [|k]; [discriminate|]. pose proof (IH k (gap_free_tail _ _ Hg) Hn). simpl. lia.
  - simpl. rewrite somes_all_none; [simpl; lia|]. intros j e. apply (Hg 0%nat (S j) ltac:(lia) eq_refl e).
Qed.

Lemma entries_stay_in_place (A : Type) (D : val -> result (option A)) (E : A -> result val) (empty : val) vs os ws n :
  mapM D vs = Ok os -> gap_free os -> mapM E (somes os) = Ok ws -> length vs = n ->
  forall k slot, nth_error vs k = Some slot ->
    exists o, D slot = Ok o /\
      match o with
      | Some e => exists slot', nth_error (pad_to n empty ws) k = Some slot' /\ E e = Ok slot'
      | None => nth_error (pad_to n empty ws) k = Some empty
      end.
Proof.
  intros Hd Hg He Hlen k slot Hk.
  destruct (mapM_nth _ _ _ _ _ Hd Hk) as (o & Ho & Hok). exists o. split; [exact Ho|].
  pose proof (mapM_length _ _ _ He) as Hlw. pose proof (mapM_length _ _ _ Hd) as Hlo.
  destruct o as [e|].
  - pose proof (somes_nth_prefix _ _ _ (fun j Hj Hnone => Hg j k Hj Hnone e Hok) Hok) as Hs.
    destruct (mapM_nth _ _ _ _ _ He Hs) as (slot' & Hslot' & Hn). exists slot'. split; [|exact Hslot'].
    exact (pad_to_nth _ _ _ _ _ Hn).
  - pose proof (somes_short_at_gap _ _ Hg Hok) as Hshort.
    assert (k < n)%nat as Hkn by (rewrite <- Hlen; apply nth_error_Some; congruence).
    apply pad_to_nth_pad. lia.
Qed.

Definition dec_cond cx := decode_entry_of cx gen_condition_table "TriggerConditionId" "_condition_id" condition_flags_codec condition_record_fields.
Definition dec_act cx := decode_entry_of cx gen_action_table "TriggerActionId" "_action_id" action_flags_codec action_record_fields.
Definition enc_cond cx := encode_entry_of cx gen_condition_table condition_flags_codec condition_record_fields.
Definition enc_act cx := encode_entry_of cx gen_action_table action_flags_codec action_record_fields.

(* "empty" is the decoder's verdict on a slot (type byte 0), not a property of the value: gap-freeness is asked of whatever
   list the decoder returns *)
Theorem trigger_entries_stay_in_place cx cx' v t v' :
  trigger_decode cx v = Ok t -> trigger_encode cx' t = Ok v' ->
  length (vlist "_conditions" v) = N.to_nat NUM_CONDITIONS_PER_TRIGGER ->
  length (vlist "_actions" v) = N.to_nat NUM_ACTIONS_PER_TRIGGER ->
  (forall os, mapM (dec_cond cx) (vlist "_conditions" v) = Ok os -> gap_free os) ->
  (forall os, mapM (dec_act cx) (vlist "_actions" v) = Ok os -> gap_free os) ->
  (forall k slot, nth_error (vlist "_conditions" v) k = Some slot ->
     exists o, dec_cond cx slot = Ok o /\
       match o with
       | Some e => exists slot', nth_error (vlist "_conditions" v') k = Some slot' /\ enc_cond cx' e = Ok slot'
       | None => nth_error (vlist "_conditions" v') k = Some (empty_entry condition_record_fields)
       end) /\
  (forall k slot, nth_error (vlist "_actions" v) k = Some slot ->
     exists o, dec_act cx slot = Ok o /\
       match o with
       | Some e => exists slot', nth_error (vlist "_actions" v') k = Some slot' /\ enc_act cx' e = Ok slot'
       | None => nth_error (vlist "_actions" v') k = Some (empty_entry action_record_fields)
       end).
Proof.
  intros Hd He Hlc Hla Hgc Hga.
  destruct (trigger_decode_inv _ _ _ Hd) as (cs & acts & Hcs & Hacts & Ec & Ea).
  destruct (trigger_encode_inv _ _ _ He) as (wc & wa & Hwc & Hwa & _ & _ & -> & ->). rewrite Ec in Hwc. rewrite Ea in Hwa.
  split.
  - exact (entries_stay_in_place _ (dec_cond cx) (enc_cond cx') _ _ _ _ _ Hcs (Hgc _ Hcs) Hwc Hlc).
  - exact (entries_stay_in_place _ (dec_act cx) (enc_act cx') _ _ _ _ _ Hacts (Hga _ Hacts) Hwa Hla).
Qed.

Theorem trig_section_triggerwise cx cx' v ts v' :
  trig_decode cx v = Ok ts -> trig_encode cx' ts = Ok v' ->
  length (vlist "_triggers" v') = length (vlist "_triggers" v) /\
  forall k tv, nth_error (vlist "_triggers" v) k = Some tv ->
    exists t tv', trigger_decode cx tv = Ok t /\ trigger_encode cx' t = Ok tv' /\ nth_error (vlist "_triggers" v') k = Some tv'.
Proof.
  intros Hd He. rewrite <- (app_nil_r ts) in He.
  destruct (trig_section_triggerwise_app _ _ _ _ _ _ Hd He) as [Hl H]. rewrite Nat.add_0_r in Hl. auto.
Qed.

(* the premise is met by the editor form (used entries first) and not by a list with an interior gap *)
Example gap_free_editor_form : gap_free [Some 7%nat; Some 8%nat; None; None] /\ ~ gap_free [Some 7%nat; None; Some 8%nat].
Proof.
  split.
  - intros j k Hjk Hj e Hk.
    assert (2 <= j)%nat as H2 by (destruct j as [|[|j]]; simpl in Hj; [discriminate | discriminate | lia]).
    assert (k <= 1)%nat as H1.
    { destruct k as [|[|[|[|k]]]]; simpl in Hk; [lia | lia | discriminate | discriminate | destruct k; discriminate]. }
    lia.
  - intros H. apply (H 1%nat 2%nat ltac:(lia) eq_refl 8%nat). reflexivity.
Qed.
