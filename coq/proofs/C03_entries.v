(* C03, byte identity of one trigger entry in the form editors write: a supported condition / action whose unused fields are
   zero, whose flags byte uses only the five defined bits, and whose references use the number the lookup gives back for what
   they denote ("references using the last ID of their text", and the like for locations, switches and unit-property sets) is
   written back as EXACTLY the record it was decoded from. *)
From Coq Require Import String NArith List Bool Lia PeanoNat.
From RC Require Import lib.Result lib.Bytes model.Layout model.Flags model.TrigTable model.RichCodec model.Str
  proofs.Flags_proofs proofs.C05_proofs proofs.Entries proofs.C10_proofs proofs.C04_readback proofs.C12_proofs
  proofs.C02_entries gen.GenTrig spec.SpecTrig gen.GenFlags gen.GenEnums.
Import ListNotations.
Local Open Scope string_scope.
Local Open Scope list_scope.
Local Open Scope N_scope.

(* what the specification tables are checked for here, by evaluation: only the type field holds the type's own number, the
   one computed field (a sound's play time) is also an argument's field, and a field fed by an argument is the field of
   that argument's row *)
Definition spec_fields_ok (fields : list string) (idf : string) (s : spec_entry) : bool :=
  forallb (fun f => match expected_src s f with
                    | EOwnId => String.eqb f idf
                    | EWavDuration => existsb (fun row : string * codec * string => String.eqb (snd row) f) (se_args s)
                    | EArg c a => existsb (arg_eqb (a, c, f)) (se_args s)
                    | EZero => true
                    end) fields.

Lemma spec_fields_ok_facts fields idf s f :
  spec_fields_ok fields idf s = true -> In f fields ->
  expected_src s f = EZero \/ f = idf \/ exists a c, In (a, c, f) (se_args s).
Proof.
  unfold spec_fields_ok. rewrite forallb_forall. intros H Hf. specialize (H f Hf).
  destruct (expected_src s f) as [| | |c a].
  - left. reflexivity.
  - right. left. apply String.eqb_eq. exact H.
  - apply existsb_exists in H as ([[a c] g] & Hrow & <-%String.eqb_eq). eauto.
  - apply existsb_exists in H as (row & Hrow & <-%arg_eqb_eq). eauto.
Qed.

Lemma find_arg_for_field_in f : forall args a c, find_arg_for_field f args = Some (a, c) -> In (a, c, f) args.
Proof.
  induction args as [|[[a0 c0] g] r IH]; intros a c H; simpl in H; [discriminate|].
  destruct (String.eqb_spec f g) as [->|Hne].
  - inversion H; subst. left. reflexivity.
  - right. apply IH. exact H.
Qed.

Section Identity.
  Variable table : list trig_entry.
  Variable spec : list spec_entry.
  Variable fields : list string.
  Variable idf enum : string.
  Variable flagc : flag_codec.

  Hypothesis Hmatch : tables_match fields table spec = true.
  Hypothesis Hspec : forallb (spec_entry_ok fields idf) spec = true.
  Hypothesis Hwav : forallb spec_wav_ok spec = true.
  Hypothesis Hfields : forallb (spec_fields_ok fields idf) spec = true.
  Hypothesis Hnd : NoDup fields.
  Hypothesis Hidf : In idf fields /\ idf <> "_flags".
  Hypothesis Hfl : In "_flags" fields.
  Hypothesis Hflags : forall x, x < 256 -> num_roundtrip flagc 5 x.

  Theorem rich_entry_identity cx cx' vals key args fl v' :
    length vals = length fields ->
    let v := entry_val fields vals in
    decode_entry_of cx table enum idf flagc fields v = Ok (Some (ERich key args fl)) ->
    encode_entry_of cx' table flagc fields (ERich key args fl) = Ok v' ->
    vint "_flags" v < 32 ->
    (* editor form: the fields this type does not use are zero *)
    (forall s f, In s spec -> se_id s = key -> In f fields -> f <> "_flags" -> expected_src s f = EZero -> vint f v = 0) ->
    (* references use the number the save's lookup gives back for what they denote *)
    (forall te a c f x n', find_entry key table = Some te -> In (a, c, f) (te_dec te) ->
       dec_arg cx c (vint f v) = Ok x -> enc_arg cx' c x = Ok n' -> n' = vint f v) ->
    v' = v.
  Proof.
    intros Hlen v Hd He Hsmall Hzero Hguard.
    destruct (rich_entry_values_survive table spec fields idf enum flagc Hmatch Hspec Hwav Hnd Hidf Hfl Hflags
                cx cx' v key args fl v' Hd He ltac:(lia))
      as (te & s & Hf & Hs & Hkey & Hid & Hflg & Hrows & Hz & Hdec & (r' & Hr')).
    subst v'. pose proof (rec_val_val_rec_id fields Hnd vals Hlen : rec_val fields (val_rec fields v) = v) as Hv.
    (* v is its own re-reading, so the two records are compared field by field *)
    rewrite <- Hv. apply rec_val_eq. intros f Hinf. rewrite Hv.
    destruct (String.eqb_spec f "_flags") as [->|Hne].
    - rewrite Hflg. apply N.mod_small. change (2 ^ 5) with 32. exact Hsmall.
    - rewrite forallb_forall in Hfields.
      destruct (spec_fields_ok_facts _ _ _ f (Hfields _ Hs) Hinf) as [Esrc | [-> | (a & c & Hrow%Hdec)]].
      + rewrite (Hz f Hinf Hne Esrc). symmetry. apply (Hzero s f Hs Hkey Hinf Hne Esrc).
      + exact Hid.
      + destruct (Hrows a c f Hrow) as (x & Hx & [Henc|[_ Heq]]); [|exact Heq].
        apply (Hguard te a c f x _ Hf Hrow Hx Henc).
  Qed.
End Identity.

Lemma action_fields_ok : forallb (spec_fields_ok action_record_fields "_action_id") spec_action_table = true.
Proof. vm_compute. reflexivity. Qed.
Lemma condition_fields_ok : forallb (spec_fields_ok condition_record_fields "_condition_id") spec_condition_table = true.
Proof. vm_compute. reflexivity. Qed.

Definition action_entry_identity :=
  rich_entry_identity _ _ _ _ "TriggerActionId" _ action_table_matches action_spec_ok action_wav_ok action_fields_ok
    (proj1 record_fields_nodup) action_id_field action_flags_field (fun x _ => action_flags_num x).

Definition condition_entry_identity :=
  rich_entry_identity _ _ _ _ "TriggerConditionId" _ condition_table_matches condition_spec_ok condition_wav_ok condition_fields_ok
    (proj2 record_fields_nodup) condition_id_field condition_flags_field (fun x _ => condition_flags_num x).

(* a concrete entry of this form (Wait 5000 ms, flags byte 4): decoded as a rich action, written back as the very record *)
Example wait_action_is_rewritten_identically :
  let cx0 := {| cx_str := {| sl_by_id := [] |}; cx_locs := []; cx_loc_ids := []; cx_switch_by_id := []; cx_switch_ids := [];
                cx_cuwps := []; cx_wav_dur := [] |} in
  let v0 := entry_val action_record_fields [0; 0; 0; 5000; 0; 0; 0; 4; 0; 4; 0; 0] in
  decode_entry_of cx0 gen_action_table "TriggerActionId" "_action_id" action_flags_codec action_record_fields v0
    = Ok (Some (ERich 4 [("_milliseconds", AInt 5000)] [false; false; true; false; false])) /\
  encode_entry_of cx0 gen_action_table action_flags_codec action_record_fields
    (ERich 4 [("_milliseconds", AInt 5000)] [false; false; true; false; false]) = Ok v0.
Proof. split; vm_compute; reflexivity. Qed.
