(* C02 / C03 below the section level: a flag word through flags_of / flags_to in both directions, for any codec that has
   the round trip of Flags_proofs; one MRGN slot and one UPRP slot as records given field by field (loc_val, cuwp_val),
   re-encoded under the editor-form guards (reserved flag bits clear, name referred to by the last id of its text) to
   exactly the record they were decoded from. *)
From Coq Require Import String NArith List Bool Lia.
From RC Require Import lib.Result lib.Bytes model.Layout model.Str model.StrEditor model.Flags model.RichCodec
  proofs.Flags_proofs proofs.C12_proofs proofs.RichTables gen.GenFlags gen.GenConsts.
Import ListNotations.
Local Open Scope string_scope.
Local Open Scope list_scope.
Local Open Scope N_scope.

Lemma flags_of_eq c x : flags_of c x = do r <- fdecode c x; Ok (map snd r).
Proof. reflexivity. Qed.

Lemma flags_to_eq c bs : flags_to c bs = fencode c (rich_of_bools c bs).
Proof. reflexivity. Qed.

Lemma flags_of_length c x bs : flags_of c x = Ok bs -> length bs = length (fc_dec c).
Proof.
  rewrite flags_of_eq. intros H. inv_bind H as r Hr Hk. inversion Hk; subst bs.
  rewrite map_length, <- (map_length fst), (fdecode_names _ _ _ Hr). apply map_length.
Qed.

(* number -> booleans -> number: the bits the format defines survive, the others are dropped *)
Lemma flags_roundtrip c nb x :
  num_roundtrip c nb x -> exists bs, flags_of c x = Ok bs /\ flags_to c bs = Ok (x mod 2 ^ nb).
Proof.
  intros (r & Hd & He). exists (map snd r). rewrite flags_of_eq, flags_to_eq, Hd. split; [reflexivity|].
  unfold rich_of_bools. rewrite <- (fdecode_names _ _ _ Hd), combine_fst_snd. exact He.
Qed.

Lemma flags_read_back c nb bs x :
  rich_roundtrip c nb bs -> length bs = length (fc_dec c) -> flags_to c bs = Ok x -> flags_of c x = Ok bs.
Proof.
  intros (x0 & E0 & _ & D0) Hlen Hx. rewrite flags_to_eq, E0 in Hx. inversion Hx; subst x0.
  rewrite flags_of_eq, D0. cbn [bind]. unfold rich_of_bools. rewrite map_snd_combine; [reflexivity|].
  rewrite map_length. congruence.
Qed.

Definition loc_val (x1 y1 x2 y2 sid fl : N) : val :=
  mk_struct [("_left_x1", VInt x1); ("_top_y1", VInt y1); ("_right_x2", VInt x2); ("_bottom_y2", VInt y2);
             ("_string_id", VInt sid); ("_elevation_flags", VInt fl)].

(* "references using the last ID of their text": the id read is the id written back *)
Definition last_id_guard (L : str_lookup) (sid : N) : Prop := id_by_str L (str_by_id L sid) = Ok sid.

Lemma loc_dec1_at L x1 y1 x2 y2 sid fl i :
  loc_dec1 L (loc_val x1 y1 x2 y2 sid fl) i =
  do el <- flags_of elevation_flags_codec fl;
  Ok {| l_x1 := x1; l_y1 := y1; l_x2 := x2; l_y2 := y2; l_name := str_by_id L sid; l_idx := Some i; l_elev := el; l_oid := 0 |}.
Proof. reflexivity. Qed.

Lemma loc_unused_at x1 y1 x2 y2 sid fl :
  loc_is_unused (loc_val x1 y1 x2 y2 sid fl) = (x1 =? 0) && (y1 =? 0) && (x2 =? 0) && (y2 =? 0) && (sid =? 0) && (fl =? 0).
Proof. reflexivity. Qed.

(* fl < 64: the elevation word has six defined bits, and flags_roundtrip returns fl mod 2^6 *)
Lemma loc_slot_reencodes L x1 y1 x2 y2 sid fl i :
  fl < 64 -> last_id_guard L sid ->
  exists l, loc_dec1 L (loc_val x1 y1 x2 y2 sid fl) i = Ok l /\ loc_encode L l = Ok (loc_val x1 y1 x2 y2 sid fl).
Proof.
  intros Hfl Hsid. rewrite loc_dec1_at.
  destruct (flags_roundtrip _ _ _ (elevation_flags_num fl)) as (bs & -> & He).
  rewrite N.mod_small in He by assumption. eexists. split; [reflexivity|].
  apply loc_encode_inv. exists sid, fl. auto.
Qed.

Lemma location_slot_roundtrip L x1 y1 x2 y2 sid fl i :
  fl < 64 -> last_id_guard L sid ->
  loc_is_unused (loc_val x1 y1 x2 y2 sid fl) = false ->
  exists l, mrgn_decode_locs L [loc_val x1 y1 x2 y2 sid fl] i = Ok [l] /\
            l_idx l = Some (i + 1) /\ loc_encode L l = Ok (loc_val x1 y1 x2 y2 sid fl).
Proof.
  intros Hfl Hsid Hused. destruct (loc_slot_reencodes L x1 y1 x2 y2 sid fl (i + 1) Hfl Hsid) as (l & Hd & He).
  exists l. rewrite mrgn_decode_locs_walk. erewrite SlotTable.walk_one_taken by eassumption. eauto using loc_dec1_idx.
Qed.

Lemma empty_location_slot : loc_is_unused empty_loc_val = true /\ empty_loc_val = loc_val 0 0 0 0 0 0.
Proof. split; reflexivity. Qed.

Definition cuwp_val (vs vu ow hp sh en res hang fl pad : N) : val :=
  mk_struct [("_valid_special_properties_flags", VInt vs); ("_valid_unit_properties_flags", VInt vu);
             ("_owner_player", VInt ow); ("_hitpoints_percentage", VInt hp); ("_shieldpoints_percentage", VInt sh);
             ("_energypoints_percentage", VInt en); ("_resource_amount", VInt res); ("_units_in_hangar", VInt hang);
             ("_flags", VInt fl); ("_padding", VInt pad)].

Lemma cuwp_dec1_at vs vu ow hp sh en res hang fl pad i :
  cuwp_dec1 (cuwp_val vs vu ow hp sh en res hang fl pad) i =
  do a <- flags_of cuwp_valid_special_flags_codec vs; do b <- flags_of cuwp_valid_unit_flags_codec vu;
  do f <- flags_of cuwp_unit_property_flags_codec fl;
  Ok {| c_hp := hp; c_sh := sh; c_en := en; c_res := res; c_hang := hang; c_flags := firstn 5 f; c_vs := a; c_vu := b;
        c_unk := nth 5 f false; c_pad := pad; c_idx := Some i |}.
Proof. reflexivity. Qed.

Lemma cuwp_unused_at vs vu ow hp sh en res hang fl pad :
  cuwp_is_unused (cuwp_val vs vu ow hp sh en res hang fl pad) =
  (vs =? 0) && ((vu =? 0) && ((ow =? 0) && ((hp =? 0) && ((sh =? 0) && ((en =? 0) && ((res =? 0) && ((hang =? 0) &&
  ((fl =? 0) && ((pad =? 0) && true))))))))).
Proof. reflexivity. Qed.

(* the bounds are 2^6, 2^7, 2^6: the three flag words have six, seven and six defined bits (C12_proofs) *)
Lemma cuwp_slot_reencodes vs vu hp sh en res hang fl pad i :
  vs < 64 -> vu < 128 -> fl < 64 ->
  exists c, cuwp_dec1 (cuwp_val vs vu 0 hp sh en res hang fl pad) i = Ok c /\
            cuwp_encode c = Ok (cuwp_val vs vu 0 hp sh en res hang fl pad).
Proof.
  intros Hvs Hvu Hfl. rewrite cuwp_dec1_at.
  destruct (flags_roundtrip _ _ _ (cuwp_valid_special_flags_num vs)) as (b1 & -> & E1).
  destruct (flags_roundtrip _ _ _ (cuwp_valid_unit_flags_num vu)) as (b2 & -> & E2).
  destruct (flags_roundtrip _ _ _ (cuwp_unit_property_flags_num fl)) as (b3 & D3 & E3). rewrite D3.
  rewrite N.mod_small in E1, E2, E3 by assumption.
  eexists. split; [reflexivity|]. apply cuwp_encode_inv. exists vs, vu, fl.
  cbn [c_vs c_vu c_flags c_unk c_hp c_sh c_en c_res c_hang c_pad].
  (* the six unit-property flags were split into five named ones and the unknown one, and are put back together *)
  pose proof (flags_of_length _ _ _ D3 : length b3 = 6%nat) as Hlen.
  rewrite (firstn_nth_last false 5 b3 Hlen). auto.
Qed.

Lemma cuwp_slot_roundtrip vs vu hp sh en res hang fl pad i :
  vs < 64 -> vu < 128 -> fl < 64 ->
  cuwp_is_unused (cuwp_val vs vu 0 hp sh en res hang fl pad) = false ->
  exists c, uprp_decode_slots [cuwp_val vs vu 0 hp sh en res hang fl pad] i = Ok [c] /\
            c_idx c = Some (i + 1) /\ cuwp_encode c = Ok (cuwp_val vs vu 0 hp sh en res hang fl pad).
Proof.
  intros Hvs Hvu Hfl Hused. destruct (cuwp_slot_reencodes vs vu hp sh en res hang fl pad (i + 1) Hvs Hvu Hfl) as (c & Hd & He).
  exists c. rewrite uprp_decode_slots_walk. erewrite SlotTable.walk_one_taken by eassumption. eauto using cuwp_dec1_idx.
Qed.
