(* C03, second clause (saving is idempotent): FALSE of the pipeline model, hence - the model being tied to the code byte
   for byte - of the implementation.  Witness: a map whose UPRP slot 1 is non-zero only in the owner byte, which the rich
   unit-property model does not hold.  First cycle: the slot is written back as all zero, UPUS marks it used.  Second
   cycle: the slot is now empty, UPUS is cleared.  Recorded as finding uprp-slot-dropped-fields-only. *)
From Coq Require Import String NArith List Bool.
From RC Require Import lib.Result lib.Bytes lib.Tree model.Layout model.ChkIo model.RichCodec model.RichIo
  proofs.ChkIo_proofs.
Import ListNotations.
Local Open Scope N_scope.

Definition idem_witness : bytes :=
  frame_all [(codes_of_string "STR ", [0; 0]);
             (codes_of_string "MRGN", repeat 0 (255 * 20));
             (codes_of_string "UPRP", [0; 0; 0; 0; 1] ++ repeat 0 (15 + 63 * 20))].

Definition unwrap (r : result bytes) : bytes := match r with Ok b => b | Raise _ => [] end.
(* stored evaluated, so that the second cycle starts from the bytes of the first and not from a rerun of it *)
Definition idem_b1 : bytes := Eval vm_compute in unwrap (load_save idem_witness).
Definition idem_b2 : bytes := Eval vm_compute in unwrap (load_save idem_b1).

Lemma idem_first_cycle : load_save idem_witness = Ok idem_b1.
Proof. vm_compute. reflexivity. Qed.

Lemma idem_second_cycle : load_save idem_b1 = Ok idem_b2.
Proof. vm_compute. reflexivity. Qed.

Lemma idem_differ : bytes_eqb idem_b1 idem_b2 = false.
Proof. vm_compute. reflexivity. Qed.

Theorem idempotence_refuted :
  exists bs b1 b2, load_save bs = Ok b1 /\ load_save b1 = Ok b2 /\ b1 <> b2.
Proof.
  exists idem_witness, idem_b1, idem_b2. split; [exact idem_first_cycle|]. split; [exact idem_second_cycle|].
  intros H. pose proof idem_differ as D. rewrite H, bytes_eqb_refl in D. discriminate.
Qed.
