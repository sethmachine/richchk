(* C03, whole sections in editor form: the 255-slot location table and the 64-slot unit-property table.  Every slot is the
   all-zero record or a used record in editor form (reserved flag bits clear; a location's name referred to by the last id of
   its text; owner byte 0 in a unit-property slot); then decoding the section and encoding the result yields the section,
   slot for slot (SlotTable.walk_table). *)
From Coq Require Import String NArith List Bool Lia PeanoNat.
From RC Require Import lib.Result lib.Bytes model.Layout model.Flags model.RichCodec proofs.C03_proofs
  proofs.C07_slots proofs.SlotTable proofs.RichTables gen.GenConsts.
Import ListNotations.
Local Open Scope string_scope.
Local Open Scope list_scope.
Local Open Scope N_scope.

Definition editor_slot (L : str_lookup) (slot : val) : Prop :=
  exists x1 y1 x2 y2 sid fl, slot = loc_val x1 y1 x2 y2 sid fl /\ fl < 64 /\ last_id_guard L sid.

Lemma editor_slot_reencodes L slot : editor_slot L slot ->
  if loc_is_unused slot then slot = empty_loc_val else forall i l, loc_dec1 L slot i = Ok l -> loc_encode L l = Ok slot.
Proof.
  intros (x1 & y1 & x2 & y2 & sid & fl & -> & Hfl & Hsid). destruct (loc_is_unused _) eqn:Eu.
  - rewrite loc_unused_at in Eu. repeat (apply andb_true_iff in Eu as [Eu ?]).
    repeat match goal with E : (_ =? 0) = true |- _ => apply N.eqb_eq in E; subst end. reflexivity.
  - intros i l Hl. destruct (loc_slot_reencodes L x1 y1 x2 y2 sid fl i Hfl Hsid) as (l' & Hd & He). congruence.
Qed.

(* the decoded list, seen as "index -> location": slot k of the input decides index i0 + k + 1 *)
Lemma mrgn_decode_slotwise L : forall slots i0 ls,
  Forall (editor_slot L) slots -> mrgn_decode_locs L slots i0 = Ok ls ->
  (forall j l, In (j, l) (by_idx ls) -> i0 < j /\ j <= i0 + N.of_nat (length slots)) /\
  (forall k slot, nth_error slots k = Some slot ->
     if loc_is_unused slot then assocN_last (i0 + N.of_nat k + 1) (by_idx ls) = None
     else exists l, assocN_last (i0 + N.of_nat k + 1) (by_idx ls) = Some l /\ loc_encode L l = Ok slot).
Proof.
  intros slots i0 ls Hed H. rewrite mrgn_decode_locs_walk in H.
  destruct (walk_spec l_idx (loc_dec1_idx L) H) as (Hrange & _ & Hslots). split.
  - intros j l Hin. apply Hrange. apply in_map_iff. exists (j, l). auto.
  - intros k slot Hk. specialize (Hslots k slot Hk). apply of_slot_inv in Hslots.
    rewrite Forall_forall in Hed. pose proof (editor_slot_reencodes L slot (Hed _ (nth_error_In _ _ Hk))) as He.
    destruct (loc_is_unused slot); [exact Hslots|].
    destruct Hslots as (l & Hl & Hs). exists l. split; [exact Hs | eauto].
Qed.

Theorem mrgn_section_roundtrip_in_editor_form L slots ls :
  length slots = N.to_nat MRGN_TRANSCODER_MAX_LOCATIONS -> Forall (editor_slot L) slots ->
  mrgn_decode L (mk_struct [("_locations", VList slots)]) = Ok ls ->
  mrgn_encode L ls = Ok (mk_struct [("_locations", VList slots)]).
Proof.
  intros Hlen Hed Hd. rewrite mrgn_decode_walk in Hd.
  rewrite mrgn_encode_table. unfold loc_table. rewrite <- Hlen.
  rewrite (walk_table l_idx (loc_dec1_idx L) Hd); [reflexivity|].
  eapply Forall_impl; [|exact Hed]. apply editor_slot_reencodes.
Qed.

Definition editor_cuwp_slot (slot : val) : Prop :=
  exists vs vu hp sh en res hang fl pad, slot = cuwp_val vs vu 0 hp sh en res hang fl pad /\ vs < 64 /\ vu < 128 /\ fl < 64.

Lemma editor_cuwp_slot_reencodes slot : editor_cuwp_slot slot ->
  if cuwp_is_unused slot then slot = empty_cuwp_val else forall i c, cuwp_dec1 slot i = Ok c -> cuwp_encode c = Ok slot.
Proof.
  intros (vs & vu & hp & sh & en & res & hang & fl & pad & -> & Hvs & Hvu & Hfl). destruct (cuwp_is_unused _) eqn:Eu.
  - rewrite cuwp_unused_at in Eu. repeat (apply andb_true_iff in Eu as [? Eu]).
    repeat match goal with E : (_ =? 0) = true |- _ => apply N.eqb_eq in E; subst end. reflexivity.
  - intros i c Hc. destruct (cuwp_slot_reencodes vs vu hp sh en res hang fl pad i Hvs Hvu Hfl) as (c' & Hd & He). congruence.
Qed.

Theorem uprp_section_roundtrip_in_editor_form slots cs :
  length slots = N.to_nat MAX_CUWP_SLOTS -> Forall editor_cuwp_slot slots ->
  uprp_decode (mk_struct [("_cuwp_slots", VList slots)]) = Ok cs ->
  uprp_encode cs = Ok (mk_struct [("_cuwp_slots", VList slots)]).
Proof.
  intros Hlen Hed Hd. rewrite uprp_decode_walk in Hd.
  rewrite uprp_encode_table.
  assert (existsb (fun c => match c_idx c with None => true | Some _ => false end) cs = false) as ->.
  { apply not_true_is_false. intros E. apply existsb_exists in E as (c & Hc & Hn).
    destruct (walk_in Hd c Hc) as (v & i & _ & Hi%cuwp_dec1_idx). rewrite Hi in Hn. discriminate. }
  unfold cuwp_table. rewrite <- Hlen.
  rewrite (walk_table c_idx cuwp_dec1_idx Hd); [reflexivity|].
  eapply Forall_impl; [|exact Hed]. apply editor_cuwp_slot_reencodes.
Qed.
