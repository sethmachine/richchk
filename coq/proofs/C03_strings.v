(* C02 / C03, the string table of an UNEDITED map: everything decode_chk puts into the rich map is read through the lookup of
   the map's own string table, so the rebuild that precedes a save has nothing to add: the STR section emitted is the one
   loaded, string number for string number. *)
From Coq Require Import String NArith List Bool Lia PeanoNat.
From RC Require Import lib.Result lib.Bytes model.Layout model.Str model.StrEditor model.ChkIo model.Flags
  model.TrigTable model.RichCodec model.RichIo proofs.C08_proofs proofs.Save_strings proofs.C07_untouched
  gen.GenTrig gen.GenFlags gen.GenConsts gen.GenRichTables proofs.Keyed proofs.SlotTable proofs.RichTables
  proofs.Save_shape proofs.C05_proofs proofs.Entries.
Import ListNotations.
Local Open Scope string_scope.
Local Open Scope list_scope.

Section Known.
  Variable L : str_lookup.
  Let T := sl_by_id L.

  Definition texts_known (ts : list (list N)) : Prop := Forall (fun t => In t T) ts.

  Lemma rstr_texts_known s : known L s -> texts_known (rstr_texts s).
  Proof. destruct s as [|t]; simpl; intros H; [constructor | constructor; [exact H | constructor]]. Qed.

  Lemma texts_known_flat_map {A} (f : A -> list (list N)) l :
    (forall x, In x l -> texts_known (f x)) -> texts_known (flat_map f l).
  Proof. intros H. apply Forall_flat_map, Forall_forall. exact H. Qed.

  Lemma mrgn_decode_locs_known vs i ls :
    mrgn_decode_locs L vs i = Ok ls -> forall l, In l ls -> known L (l_name l).
  Proof.
    rewrite mrgn_decode_locs_walk. intros H l Hl. destruct (walk_in H l Hl) as (v & j & _ & Hd).
    rewrite (loc_dec1_name _ _ _ _ Hd). apply str_by_id_known.
  Qed.

  Lemma swnm_lookup_known v : forall k s, In (k, s) (swnm_lookup L v) -> known L (s_name s).
  Proof.
    intros k s H. rewrite swnm_lookup_numbered in H. apply in_map_iff in H as (p & Heq & _). inversion Heq.
    apply str_by_id_known.
  Qed.

  (* a context whose tables were read through L *)
  Definition ctx_known (cx : context) : Prop :=
    cx_str cx = L /\ (forall l, In l (cx_locs cx) -> known L (l_name l)) /\
    (forall k s, In (k, s) (cx_switch_by_id cx) -> known L (s_name s)).

  Lemma dec_arg_known cx c v a : ctx_known cx -> dec_arg cx c v = Ok a -> texts_known (arg_strings a).
  Proof.
    intros (HL & Hlocs & Hsw) H.
    assert (forall l, loc_by_id cx v = Some l -> In l (cx_locs cx)) as Hloc.
    { rewrite loc_by_id_keyed. destruct (N.eqb v 0); [discriminate|]. intros l El. apply assocN_last_in, in_keyed in El. tauto. }
    destruct c; cbn [dec_arg] in H.
    - apply Ok_inj in H as <-. constructor.
    - destruct (enum_has E v); [|discriminate H]. apply Ok_inj in H as <-. constructor.
    - destruct (loc_by_id cx v) as [l|] eqn:El; [|discriminate]. apply Ok_inj in H as <-. apply rstr_texts_known; eauto.
    - destruct (loc_by_id cx v) as [l|] eqn:El; [|discriminate]. apply Ok_inj in H as <-. apply rstr_texts_known; eauto.
    - apply Ok_inj in H as <-. cbn [arg_strings]. apply rstr_texts_known. rewrite HL. apply str_by_id_known.
    - apply Ok_inj in H as <-. constructor.
    - destruct (cuwp_by_id cx v); [|discriminate H]. apply Ok_inj in H as <-. constructor.
    - destruct (assocN_last v (cx_switch_by_id cx)) as [s|] eqn:Es; apply Ok_inj in H as <-; cbn [arg_strings s_name].
      + apply rstr_texts_known. apply assocN_last_in in Es. eapply Hsw; eauto.
      + constructor.
    - inv_bind H as n Hn Hk. apply Ok_inj in Hk as <-. constructor.
  Qed.

  Lemma decode_entry_known cx e r args :
    ctx_known cx -> decode_entry rarg (dec_arg cx) e r = Ok args ->
    forall a x, In (a, x) args -> texts_known (arg_strings x).
  Proof.
    intros Hcx H a x Hin. rewrite decode_entry_rows in H.
    destruct (mapM_in _ _ _ _ H Hin) as (i & row & Hrow & Hf).
    inv_bind Hf as y Hy Hk. inv_bind Hy as v Hv Hy. injection Hk as _ <-. eapply dec_arg_known; eauto.
  Qed.

  Lemma decode_entry_of_known cx table enum idf flagc fields v e tb :
    ctx_known cx -> decode_entry_of cx table enum idf flagc fields v = Ok (Some e) ->
    texts_known (flat_map arg_strings (ordered_args tb e)).
  Proof.
    intros Hcx H. apply decode_entry_of_inv in H. destruct e as [r|key args fl]; [constructor|].
    destruct H as (_ & _ & _ & te & _ & Ha & _). cbn [ordered_args].
    apply texts_known_flat_map. intros x Hx. apply in_flat_map in Hx as (f & Hf & Hx).
    destruct (arg_get rarg f args) as [y|] eqn:Eg; [|destruct Hx]. destruct Hx as [<-|[]].
    eapply decode_entry_known; eauto. eapply arg_get_in; eauto.
  Qed.

  Lemma trigger_decode_known cx v t :
    ctx_known cx -> trigger_decode cx v = Ok t -> texts_known (flat_map arg_strings (trigger_args t)).
  Proof.
    intros Hcx H. destruct (trigger_decode_inv _ _ _ H) as (cs & acts & Hcs & Hacts & Ec & Ea).
    unfold trigger_args. rewrite Ec, Ea, flat_map_app, !flat_map_flat_map.
    apply Forall_app. split; apply texts_known_flat_map; intros e He%somes_in.
    - destruct (mapM_in _ _ _ _ Hcs He) as (i & x & Hx & Hf). eapply decode_entry_of_known; eauto.
    - destruct (mapM_in _ _ _ _ Hacts He) as (i & x & Hx & Hf). eapply decode_entry_of_known; eauto.
  Qed.

  (* C07_untouched.names_known, for the two kinds of section it speaks of, says the same *)
  Lemma names_known_texts s : names_known T s -> texts_known (section_strings s).
  Proof.
    destruct s; cbn [names_known]; try contradiction; intros H; cbn [section_strings]; apply texts_known_flat_map.
    - intros u Hu. apply rstr_texts_known. exact (H u Hu).
    - intros w Hw. apply rstr_texts_known. exact (H w Hw).
  Qed.

  Lemma load_section_known cx s r :
    ctx_known cx -> load_section cx s = Ok r -> texts_known (section_strings r).
  Proof.
    intros (HL & Hlocs & Hsw) H. apply load_section_inv in H. rewrite HL in H.
    destruct r as [ls|ts|nw n us|cs|ss|ws|n w m|n v|n p]; try constructor.
    - destruct H as (v & _ & Hls). cbn [section_strings]. apply texts_known_flat_map.
      intros l Hl. apply rstr_texts_known. eapply mrgn_decode_locs_known; eauto.
    - destruct H as (v & _ & Hts). cbn [section_strings]. apply texts_known_flat_map.
      intros t Ht. apply trig_decode_inv in Hts. destruct (mapM_in _ _ _ _ Hts Ht) as (i & x & Hx & Hf).
      eapply trigger_decode_known; [|exact Hf]. repeat split; assumption.
    - destruct H as (v & _ & -> & _). apply names_known_texts, unis_decode_names_known.
    - destruct H as (v & _ & Hss). cbn [section_strings]. apply texts_known_flat_map.
      intros x Hx. apply rstr_texts_known. destruct (swnm_decode_in _ _ _ _ Hss Hx) as (k & Hk). exact (Hsw k x Hk).
    - destruct H as (v & _ & ->). apply names_known_texts, wav_decode_names_known.
  Qed.
End Known.

Lemma decode_context_known d cx :
  decode_context d = Ok cx -> ctx_known (cx_str cx) cx.
Proof.
  intros H. destruct (decode_context_inv _ _ H) as (str & mv & _ & _ & _ & Hlocs & Hsw & _).
  split; [reflexivity|]. split.
  - intros l Hl. eapply mrgn_decode_locs_known; eauto.
  - intros k s Hs. rewrite Hsw in Hs. destruct (tabs_named "SWNM" d) as [|v [|v2 rest]]; try (destruct Hs).
    eapply swnm_lookup_known; eauto.
Qed.

Theorem loaded_maps_mention_only_known_texts d r cx :
  decode_context d = Ok cx -> load d = Ok r ->
  Forall (fun t => In t (sl_by_id (cx_str cx))) (flat_map section_strings r).
Proof.
  intros Hcx Hl. destruct (load_inv _ _ Hl) as (cx0 & Hcx0 & Hm). rewrite Hcx in Hcx0. apply Ok_inj in Hcx0. subst cx0.
  apply texts_known_flat_map. intros s Hs.
  destruct (mapM_in _ _ _ _ Hm Hs) as (i & x & Hx & Hf).
  eapply load_section_known; [apply (decode_context_known d); exact Hcx | exact Hf].
Qed.

Theorem unedited_save_keeps_the_string_table d r m bin :
  load d = Ok r -> strs_named "STR " d = [m] ->
  filter (named "STR ") r = [RDecodedStr "STR " 2 m] ->
  wf_table 2 m bin -> rebuild_str r = Ok m.
Proof.
  intros Hl Hd Hf Hwf. destruct (load_inv _ _ Hl) as (cx & Hcx & _).
  pose proof (loaded_maps_mention_only_known_texts d r cx Hcx Hl) as Hk.
  (* the context's lookup is the lookup of m: the offsets of m resolved in bin *)
  destruct (decode_context_inv _ _ Hcx) as (str & mv & Hstr & HL & _). rewrite Hd in Hstr. injection Hstr as <-.
  destruct (build_lookup_inv _ _ _ (build_str_lookup_inv _ _ _ HL)) as (bin' & Hbin' & HT).
  rewrite (wf_enc _ _ _ Hwf) in Hbin'. apply Ok_inj in Hbin'. subst bin'.
  rewrite (rebuild_str_eq _ _ _ _ Hf). apply (add_noop_when_all_resolvable 2 _ m bin Hwf).
  intros s Hs. rewrite Forall_forall in Hk. specialize (Hk s Hs).
  destruct (mapM_in _ _ _ _ HT Hk) as (i & o & Hn & Hr). exists i, o. auto.
Qed.

Theorem unedited_save_emits_the_loaded_str d r wd d' m bin i :
  load d = Ok r -> strs_named "STR " d = [m] ->
  filter (named "STR ") r = [RDecodedStr "STR " 2 m] -> wf_table 2 m bin ->
  save wd r = Ok d' -> nth_error d i = Some (DStr "STR " 2 m) ->
  nth_error d' i = Some (DStr "STR " 2 m).
Proof.
  intros Hl Hd Hf Hwf Hs Hn.
  pose proof (unedited_save_keeps_the_string_table d r m bin Hl Hd Hf Hwf) as Hreb.
  assert (nth_error r i = Some (RDecodedStr "STR " 2 m)) as Hr.
  { destruct (load_nth _ _ _ _ Hl Hn) as (cx & y & _ & Hy & Hny). cbn [load_section] in Hy. congruence. }
  destruct (save_inv _ _ _ Hs) as (b & Hb & Hm). rewrite (save_str_nth _ _ _ _ _ _ _ Hm Hr).
  pose proof (rs_str Hb). congruence.
Qed.
