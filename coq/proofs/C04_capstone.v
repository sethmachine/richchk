(* C04, a capstone instance: one authored Center View action (type 10, one location argument) through save and the reload of
   the saved map: it is read back as a Center View action with the same flags, whose location is the authored one - rectangle,
   name, elevation flags - carrying the number the save gave it. *)
From Coq Require Import String NArith List Bool Lia PeanoNat.
From RC Require Import lib.Result lib.Bytes model.Layout model.Str model.ChkIo model.Flags model.TrigTable
  model.RichCodec model.RichIo proofs.Entries proofs.C07_slots proofs.C07_triggers proofs.C04_locations proofs.C04_readback
  proofs.C04_reload_locs gen.GenTrig gen.GenFlags gen.GenConsts.
Import ListNotations.
Local Open Scope string_scope.
Local Open Scope list_scope.
Local Open Scope N_scope.

(* C04_readback.authored_action_reads_back_later for an action without a computed play time, the reading side given as a function
   F of the authored argument *)
Corollary authored_action_reads_back_as cx cx' (F : rarg -> rarg) key args fl v e :
  encode_entry_of cx gen_action_table action_flags_codec action_record_fields (ERich key args fl) = Ok v ->
  length fl = 5%nat -> arg_get rarg "_duration_ms" args = Raise e ->
  (forall te a c f x n, find_entry key gen_action_table = Some te -> In (a, c, f) (te_dec te) -> arg_get rarg a args = Ok x ->
     enc_arg cx c x = Ok n -> dec_arg cx' c n = Ok (F x)) ->
  exists te args',
    find_entry key gen_action_table = Some te /\
    decode_entry_of cx' gen_action_table "TriggerActionId" "_action_id" action_flags_codec action_record_fields v
      = Ok (Some (ERich key args' fl)) /\
    forall a c f x, In (a, c, f) (te_dec te) -> arg_get rarg a args = Ok x -> arg_get rarg a args' = Ok (F x).
Proof.
  intros He Hlen Hnd Hrows.
  destruct (authored_action_reads_back_later cx cx' (fun x x' => x' = F x) key args fl v He Hlen) as (te & args' & Hte & Hd & Hargs).
  - intros te a c f x n Hte Hrow Hx Hn. eauto.
  - exists te, args'. split; [exact Hte|]. split; [exact Hd|]. intros a c f x Hrow Hx.
    destruct (Hargs a c f Hrow) as (x' & Hx' & [(x0 & Hx0 & ->)|(d & Hd' & _)]); [congruence|].
    destruct (wav_duration_inv _ _ _ Hd') as [E|E]; congruence.
Qed.

Lemma saved_location_argument wd SL mr sw up l i :
  find_loc_id l (snd mr) None = Some i -> enc_arg (save_context wd SL mr sw up) CLoc (ALoc l) = Ok i.
Proof. intros H. cbn [enc_arg]. unfold id_by_loc. cbn [save_context cx_loc_ids]. rewrite H. reflexivity. Qed.

Lemma center_view_entry te : find_entry 10 gen_action_table = Some te -> te_dec te = [("_location", CLoc, "_location_id")].
Proof. vm_compute. intros H. inversion H. reflexivity. Qed.

Theorem center_view_survives_save_and_reload wd r d' cx' ls mr sw up new_str SL l fl v i mv slot :
  save wd r = Ok d' -> decode_context d' = Ok cx' ->
  filter (named "MRGN") r = [RMrgn ls] -> rebuild_mrgn r = Ok mr ->
  rebuild_str r = Ok new_str -> build_str_lookup 2 new_str = Ok SL -> N.of_nat (length (sl_by_id SL)) <= 1000000 ->
  NoDup (map fst (by_idx ls)) -> (forall x, In x (fst mr) -> length (l_elev x) = 6%nat) ->
  (* the action as the save encodes it: under the save's own context *)
  let cx := save_context wd SL mr sw up in
  encode_entry_of cx gen_action_table action_flags_codec action_record_fields (ERich 10 [("_location", ALoc l)] fl) = Ok v ->
  length fl = 5%nat ->
  (* the number the location got, and its slot in the emitted table (not all zero) *)
  find_loc_id l (snd mr) None = Some i -> 1 <= i ->
  mrgn_encode SL (fst mr) = Ok mv -> nth_error (vlist "_locations" mv) (N.to_nat (i - 1)) = Some slot -> loc_is_unused slot = false ->
  exists k0 args',
    rloc_eqb l k0 = true /\
    decode_entry_of cx' gen_action_table "TriggerActionId" "_action_id" action_flags_codec action_record_fields v
      = Ok (Some (ERich 10 args' fl)) /\
    arg_get rarg "_location" args' =
      Ok (ALoc {| l_x1 := l_x1 k0; l_y1 := l_y1 k0; l_x2 := l_x2 k0; l_y2 := l_y2 k0; l_name := l_name k0;
                  l_idx := Some i; l_elev := l_elev k0; l_oid := 0 |}).
Proof.
  intros Hs Hc Hf Hmr Hstr HSL Hsmall Hnd Helev cx He Hlen Hfind Hi Hmv Hslot Hu.
  destruct (location_number_resolves_after_reload wd r d' cx' ls mr new_str SL l i mv slot
              Hs Hc Hf Hmr Hstr HSL Hsmall Hnd Helev Hfind Hi Hmv Hslot Hu) as (k0 & Hk0 & Hby).
  destruct (authored_action_reads_back_as cx cx' (fun _ => ALoc (reloc k0 i)) 10 [("_location", ALoc l)] fl v TypeError He Hlen eq_refl)
    as (te & args' & Hte & Hd & Hargs).
  - intros te a c f x n Hte Hrow Hx Hn. rewrite (center_view_entry te Hte) in Hrow.
    destruct Hrow as [Heq|[]]. injection Heq as <- <- <-. apply Ok_inj in Hx as <-.
    unfold cx in Hn. rewrite (saved_location_argument _ _ _ _ _ _ _ Hfind) in Hn. apply Ok_inj in Hn as <-.
    cbn [dec_arg]. rewrite Hby. reflexivity.
  - exists k0, args'. split; [exact Hk0|]. split; [exact Hd|].
    apply (Hargs "_location" CLoc "_location_id" (ALoc l)); [rewrite (center_view_entry te Hte); left|]; reflexivity.
Qed.
