(* C04, a second capstone, with arguments of several kinds at once: one authored Create-Units-with-Properties action (type 11:
   player and unit type - enumeration members -, amount - a plain number -, a location and a unit-property set) through save and
   the load of the saved map. *)
From Coq Require Import String NArith List Bool Lia PeanoNat.
From RC Require Import lib.Result lib.Bytes model.Layout model.Str model.ChkIo model.Flags model.TrigTable
  model.RichCodec model.RichIo proofs.C07_slots proofs.C07_triggers proofs.C04_reload_locs
  proofs.C04_reload_cuwps proofs.C04_capstone gen.GenTrig gen.GenFlags gen.GenConsts.
Import ListNotations.
Local Open Scope string_scope.
Local Open Scope list_scope.
Local Open Scope N_scope.

Lemma create_units_entry te :
  find_entry 11 gen_action_table = Some te ->
  te_dec te = [("_group", CEnum "PlayerId", "_first_group"); ("_amount", CRaw, "_quantifier_or_switch_or_order");
               ("_unit", CEnum "UnitId", "_action_argument_type"); ("_location", CLoc, "_location_id");
               ("_properties", CCuwp, "_second_group")].
Proof. vm_compute. intros H. inversion H. reflexivity. Qed.

(* C04_locations.reloc and C04_cuwps.recuwp, under the names the statement below uses *)
Definition fields_of_loc (k0 : rloc) (i : N) : rloc :=
  {| l_x1 := l_x1 k0; l_y1 := l_y1 k0; l_x2 := l_x2 k0; l_y2 := l_y2 k0; l_name := l_name k0; l_idx := Some i;
     l_elev := l_elev k0; l_oid := 0 |}.
Definition fields_of_cuwp (k : rcuwp) (j : N) : rcuwp :=
  {| c_hp := c_hp k; c_sh := c_sh k; c_en := c_en k; c_res := c_res k; c_hang := c_hang k; c_flags := c_flags k;
     c_vs := c_vs k; c_vu := c_vu k; c_unk := c_unk k; c_pad := c_pad k; c_idx := Some j |}.

Theorem create_units_survives_save_and_reload
        wd r d' cx' ls mr sw cs up new_str SL g n u l c fl v i mv slot j uv cslot :
  save wd r = Ok d' -> decode_context d' = Ok cx' ->
  (* strings *)
  rebuild_str r = Ok new_str -> build_str_lookup 2 new_str = Ok SL -> N.of_nat (length (sl_by_id SL)) <= 1000000 ->
  (* locations *)
  filter (named "MRGN") r = [RMrgn ls] -> rebuild_mrgn r = Ok mr ->
  NoDup (map fst (by_idx ls)) -> (forall x, In x (fst mr) -> length (l_elev x) = 6%nat) ->
  (* unit-property sets *)
  filter (named "UPRP") r = [RUprp cs] -> rebuild_uprp r = Ok up -> NoDup (map fst (cby_idx cs)) ->
  (forall s, In s r -> named "UPRP" s = true -> exists cs0, s = RUprp cs0) ->
  (forall x, In x up -> length (c_vs x) = 6%nat /\ length (c_vu x) = 7%nat /\ length (c_flags x) = 5%nat) ->
  (* the action as the save encodes it, under the save's own context; player and unit type are members of their enumerations *)
  let cx := save_context wd SL mr sw up in
  enum_has "PlayerId" g = true -> enum_has "UnitId" u = true ->
  encode_entry_of cx gen_action_table action_flags_codec action_record_fields
    (ERich 11 [("_group", AEnum g); ("_amount", AInt n); ("_unit", AEnum u); ("_location", ALoc l); ("_properties", ACuwp c)] fl) = Ok v ->
  length fl = 5%nat ->
  (* the numbers the location and the unit-property set got, and their slots in the emitted tables (not all zero) *)
  find_loc_id l (snd mr) None = Some i -> 1 <= i ->
  mrgn_encode SL (fst mr) = Ok mv -> nth_error (vlist "_locations" mv) (N.to_nat (i - 1)) = Some slot -> loc_is_unused slot = false ->
  id_by_cuwp cx c = Ok j -> 1 <= j ->
  uprp_encode up = Ok uv -> nth_error (vlist "_cuwp_slots" uv) (N.to_nat (j - 1)) = Some cslot -> cuwp_is_unused cslot = false ->
  exists k0 k args',
    rloc_eqb l k0 = true /\ rcuwp_eqb c k = true /\
    decode_entry_of cx' gen_action_table "TriggerActionId" "_action_id" action_flags_codec action_record_fields v
      = Ok (Some (ERich 11 args' fl)) /\
    arg_get rarg "_group" args' = Ok (AEnum g) /\ arg_get rarg "_amount" args' = Ok (AInt n) /\
    arg_get rarg "_unit" args' = Ok (AEnum u) /\
    arg_get rarg "_location" args' = Ok (ALoc (fields_of_loc k0 i)) /\
    arg_get rarg "_properties" args' = Ok (ACuwp (fields_of_cuwp k j)).
Proof.
  intros Hs Hc Hstr HSL Hsmall Hf Hmr Hnd Helev Hfu Hup Hndc Honly Hlens cx Hg Hu He Hlen Hfind Hi Hmv Hslot Hunused
         Hid Hj Huv Hcslot Hcunused.
  destruct (location_number_resolves_after_reload wd r d' cx' ls mr new_str SL l i mv slot
              Hs Hc Hf Hmr Hstr HSL Hsmall Hnd Helev Hfind Hi Hmv Hslot Hunused) as (k0 & Hk0 & Hby).
  destruct (cuwp_number_resolves_after_reload wd r d' cx' cs up cx c j uv cslot
              Hs Hc Hfu Hup eq_refl Hndc Honly Hlens Hid Hj Huv Hcslot Hcunused) as (k & Hk & Hcby).
  destruct (authored_action_reads_back_as cx cx'
              (fun x => match x with ALoc _ => ALoc (fields_of_loc k0 i) | ACuwp _ => ACuwp (fields_of_cuwp k j) | _ => x end)
              11 _ fl v TypeError He Hlen eq_refl) as (te & args' & Hte & Hd & Hargs).
  - intros te a c0 f x m Hte Hrow Hx Hm. rewrite (create_units_entry te Hte) in Hrow.
    (* the five rows of the entry, and under the name of each the authored argument *)
    destruct Hrow as [Heq|[Heq|[Heq|[Heq|[Heq|[]]]]]].
    all: injection Heq as <- <- <-.
    all: apply Ok_inj in Hx as <-.
    + apply Ok_inj in Hm as <-. cbn [dec_arg]. rewrite Hg. reflexivity.
    + apply Ok_inj in Hm as <-. reflexivity.
    + apply Ok_inj in Hm as <-. cbn [dec_arg]. rewrite Hu. reflexivity.
    + unfold cx in Hm. rewrite (saved_location_argument _ _ _ _ _ _ _ Hfind) in Hm. apply Ok_inj in Hm as <-.
      cbn [dec_arg]. rewrite Hby. reflexivity.
    + cbn [enc_arg] in Hm. rewrite Hid in Hm. apply Ok_inj in Hm as <-. cbn [dec_arg]. rewrite Hcby. reflexivity.
  - exists k0, k, args'. split; [exact Hk0|]. split; [exact Hk|]. split; [exact Hd|].
    rewrite (create_units_entry te Hte) in Hargs.
    repeat split.
    + eapply (Hargs "_group" _ _ (AEnum g)); [left|]; reflexivity.
    + eapply (Hargs "_amount" _ _ (AInt n)); [do 1 right; left|]; reflexivity.
    + eapply (Hargs "_unit" _ _ (AEnum u)); [do 2 right; left|]; reflexivity.
    + eapply (Hargs "_location" _ _ (ALoc l)); [do 3 right; left|]; reflexivity.
    + eapply (Hargs "_properties" _ _ (ACuwp c)); [do 4 right; left|]; reflexivity.
Qed.
