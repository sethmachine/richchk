(* C04, "every new reference resolves to the authored object", unit-property sets, through the save's own rebuild: the number
   the save writes into a Create-Unit-with-Properties action for a set c (RichCuwpLookup.get_id_by_cuwp over the REBUILT
   table) names a slot of the rebuilt table that holds properties equal to c's.  Then the emitted table as a later load
   reads it: one set per number, and at every number whose slot is in use the set written there. *)
From Coq Require Import String NArith List Bool Lia PeanoNat.
From RC Require Import lib.Result lib.Bytes model.Layout model.Flags model.RichCodec model.RichIo model.Alloc
  proofs.C12_proofs proofs.C03_proofs proofs.LastHit proofs.Keyed proofs.SlotTable proofs.RichTables
  proofs.C07_slots proofs.C07_triggers gen.GenConsts gen.GenFlags.
Import ListNotations.
Local Open Scope string_scope.
Local Open Scope list_scope.
Local Open Scope N_scope.

Lemma rebuilt_uprp_indices_distinct r cs up :
  filter (named "UPRP") r = [RUprp cs] -> rebuild_uprp r = Ok up ->
  NoDup (map fst (cby_idx cs)) -> NoDup (map fst (cby_idx up)).
Proof.
  intros Hf H Hnd. destruct (rebuild_uprp_inv_at _ _ _ Hf H) as (placed & -> & _ & Hndp & Hfree).
  rewrite !cby_idx_keyed in *. rewrite (keyed_placed c_idx set_cidx), map_app, map_map by reflexivity. cbn [fst].
  apply NoDup_app_intro; [exact Hnd | exact Hndp | exact Hfree].
Qed.

Theorem saved_cuwp_number_names_the_set r cs up cx c i :
  filter (named "UPRP") r = [RUprp cs] -> rebuild_uprp r = Ok up -> cx_cuwps cx = up ->
  NoDup (map fst (cby_idx cs)) ->                        (* the loaded table has one set per number (decode gives that) *)
  id_by_cuwp cx c = Ok i ->
  exists k, assocN_last i (cby_idx up) = Some k /\ rcuwp_eqb c k = true.
Proof.
  intros Hf H Hcx Hnd Hid. subst up.
  pose proof (rebuilt_uprp_indices_distinct _ _ _ Hf H Hnd) as Hnd2.
  destruct (id_by_cuwp_inv _ _ _ Hid) as [(k & Ek & Eq)|E].
  - (* the set sitting at the number c carries *)
    exists k. split; [exact Ek | exact Eq].
  - (* the last equal set of the table: it is the only one under its number *)
    rewrite find_cuwp_id_fold in E. apply last_hit_sound in E as [Hc|(k & Hin & He & Hi)]; [discriminate|].
    exists k. split; [|exact He]. apply assocN_last_unique; [exact Hnd2|]. apply (in_keyed c_idx). split; assumption.
Qed.

(* the premise holds of every unit-property table decode_chk returns *)
Theorem loaded_uprp_table_has_one_set_per_number v cs :
  uprp_decode v = Ok cs -> NoDup (map fst (cby_idx cs)).
Proof.
  unfold uprp_decode. rewrite uprp_decode_slots_walk. intros H.
  exact (proj1 (proj2 (walk_spec c_idx cuwp_dec1_idx H))).
Qed.

(* a unit-property set as a later load rebuilds it at number i: every value kept *)
Definition recuwp (c : rcuwp) (i : N) : rcuwp :=
  {| c_hp := c_hp c; c_sh := c_sh c; c_en := c_en c; c_res := c_res c; c_hang := c_hang c; c_flags := c_flags c;
     c_vs := c_vs c; c_vu := c_vu c; c_unk := c_unk c; c_pad := c_pad c; c_idx := Some i |}.

Lemma cuwp_slot_reads_back c slot i :
  cuwp_encode c = Ok slot ->
  length (c_vs c) = 6%nat /\ length (c_vu c) = 7%nat /\ length (c_flags c) = 5%nat ->
  cuwp_dec1 slot i = Ok (recuwp c i).
Proof.
  intros (a & b & f & Ha & Hb & Hf & ->)%cuwp_encode_inv (Hvs & Hvu & Hfl).
  fold (cuwp_val a b 0 (c_hp c) (c_sh c) (c_en c) (c_res c) (c_hang c) f (c_pad c)). rewrite cuwp_dec1_at.
  assert (length (c_flags c ++ [c_unk c]) = 6%nat) as Hfl6 by (rewrite app_length, Hfl; reflexivity).
  rewrite (flags_read_back _ _ _ _ (cuwp_valid_special_flags_rich _ Hvs) Hvs Ha).
  rewrite (flags_read_back _ _ _ _ (cuwp_valid_unit_flags_rich _ Hvu) Hvu Hb).
  rewrite (flags_read_back _ _ _ _ (cuwp_unit_property_flags_rich _ Hfl6) Hfl6 Hf). cbn [bind].
  (* of the six bits written, the first five are the flags again and the sixth the unknown bit *)
  rewrite (firstn_app_exact 5 _ _ Hfl), app_nth2, Hfl, Nat.sub_diag by lia. reflexivity.
Qed.

Theorem an_emitted_cuwp_slot_reads_back c slot i0 :
  cuwp_encode c = Ok slot ->
  length (c_vs c) = 6%nat -> length (c_vu c) = 7%nat -> length (c_flags c) = 5%nat ->
  cuwp_is_unused slot = false ->                         (* content equal to an empty slot is the recorded C11 finding *)
  uprp_decode_slots [slot] i0 =
    Ok [{| c_hp := c_hp c; c_sh := c_sh c; c_en := c_en c; c_res := c_res c; c_hang := c_hang c; c_flags := c_flags c;
           c_vs := c_vs c; c_vu := c_vu c; c_unk := c_unk c; c_pad := c_pad c; c_idx := Some (i0 + 1) |}].
Proof.
  intros H Hvs Hvu Hfl Hused. rewrite uprp_decode_slots_walk.
  exact (walk_one_taken _ _ _ _ _ Hused (cuwp_slot_reads_back c slot (i0 + 1) H (conj Hvs (conj Hvu Hfl)))).
Qed.

Theorem saved_cuwp_table_reads_back cs v :
  uprp_encode cs = Ok v ->
  (forall c, In c cs -> length (c_vs c) = 6%nat /\ length (c_vu c) = 7%nat /\ length (c_flags c) = 5%nat) ->
  exists cs', uprp_decode v = Ok cs' /\
    forall k c slot, assocN_last (N.of_nat k + 1) (cby_idx cs) = Some c ->
      nth_error (vlist "_cuwp_slots" v) k = Some slot -> cuwp_is_unused slot = false ->
      assocN_last (N.of_nat k + 1) (cby_idx cs') =
        Some {| c_hp := c_hp c; c_sh := c_sh c; c_en := c_en c; c_res := c_res c; c_hang := c_hang c; c_flags := c_flags c;
                c_vs := c_vs c; c_vu := c_vu c; c_unk := c_unk c; c_pad := c_pad c; c_idx := Some (N.of_nat k + 1) |}.
Proof.
  intros H Hlens. apply uprp_encode_inv in H as (_ & slots & Hs & ->). rewrite uprp_decode_walk.
  apply (table_reads_back c_idx cuwp_dec1_idx recuwp Hs eq_refl).
  intros c slot i Hc He _. apply cuwp_slot_reads_back; auto.
Qed.
