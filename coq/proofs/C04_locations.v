(* C04, "every new reference resolves to the authored object", locations, through the save's own rebuild: the number the save
   hands to the trigger encoders for a location l (RichMrgnLookup.get_id_by_location over the REBUILT table) names a slot of
   the rebuilt table that holds a location Python considers equal to l, carrying exactly that number - for locations of the map
   (found among the table's own entries) and authored ones (placed by the allocation engine).  Then the emitted table as a
   later load reads it: one location per number, and at every number whose slot is in use the location written there. *)
From Coq Require Import String NArith List Bool Lia PeanoNat.
From RC Require Import lib.Result lib.Bytes model.Layout model.Flags model.RichCodec model.RichIo model.Alloc
  proofs.C12_proofs proofs.C03_proofs proofs.Save_strings proofs.LastHit proofs.Keyed proofs.SlotTable
  proofs.RichTables proofs.C07_slots gen.GenConsts gen.GenFlags.
Import ListNotations.
Local Open Scope string_scope.
Local Open Scope list_scope.
Local Open Scope N_scope.

Lemma set_idx_self l i : l_idx l = Some i -> set_idx l i = l.
Proof. destruct l; simpl; intros ->; reflexivity. Qed.

Theorem saved_location_number_names_the_location r ls mr l i :
  filter (named "MRGN") r = [RMrgn ls] -> rebuild_mrgn r = Ok mr ->
  NoDup (map fst (by_idx ls)) ->                       (* the loaded table has one location per number (decode gives that) *)
  find_loc_id l (snd mr) None = Some i ->
  exists k0, rloc_eqb l k0 = true /\ assocN_last i (by_idx (fst mr)) = Some (set_idx k0 i).
Proof.
  intros Hf H Hnd Hfind. destruct (rebuild_mrgn_inv _ _ H) as (ls' & placed & Hf' & -> & Hidx & Hndp & Hfree & _).
  rewrite Hf in Hf'. injection Hf' as <-. cbn [fst snd] in *.
  rewrite find_loc_id_fold in Hfind. apply last_hit_sound in Hfind as [Hc|([k0 i'] & Hin & He & Hv)]; [discriminate|].
  cbn [fst snd] in He, Hv. inversion Hv; subst i'. clear Hv.
  rewrite !by_idx_keyed in *. rewrite (keyed_placed l_idx set_idx) by reflexivity.
  apply in_app_iff in Hin as [Hin|Hin].
  - (* one of the table's own entries *)
    apply in_map_iff in Hin as (k1 & Heq & Hk1). injection Heq as Hk Hi. subst k0.
    assert (l_idx k1 = Some i) as Hidx1 by (specialize (Hidx k1 Hk1); destruct (l_idx k1); congruence).
    exists k1. split; [exact He|]. rewrite set_idx_self by exact Hidx1.
    assert (In (i, k1) (keyed l_idx ls)) as Hik by (apply in_keyed; split; assumption).
    rewrite assocN_last_app_absent; [apply assocN_last_unique; assumption|].
    (* no newly placed location has the number of an occupied slot *)
    rewrite map_map. cbn [fst]. intros Hc. exact (Hfree i Hc (in_map fst _ _ Hik)).
  - (* one the engine placed: the dictionary holds it twice, as placed (carrying its number) and as authored *)
    apply in_flat_map in Hin as ([q j] & Hq & Hpair). cbn [fst snd] in Hpair.
    assert (assocN_last j (map (fun p : rloc * N => (snd p, set_idx (fst p) (snd p))) placed) = Some (set_idx q j)) as Hslot.
    { apply assocN_last_unique; [rewrite map_map; exact Hndp|]. apply in_map_iff. exists (q, j). split; [reflexivity | exact Hq]. }
    rewrite assocN_last_app.
    destruct Hpair as [Heq|[Heq|[]]]; inversion Heq; subst k0 i; clear Heq; rewrite Hslot.
    + exists (set_idx q j). split; [exact He|]. reflexivity.
    + exists q. split; [exact He|]. reflexivity.
Qed.

(* the premise holds of every location table decode_chk returns *)
Theorem loaded_location_table_has_one_location_per_number L v ls :
  mrgn_decode L v = Ok ls -> NoDup (map fst (by_idx ls)).
Proof.
  unfold mrgn_decode. rewrite mrgn_decode_locs_walk. intros H.
  exact (proj1 (proj2 (walk_spec l_idx (loc_dec1_idx L) H))).
Qed.

(* a location as a later load rebuilds it at number i: rectangle, name and elevation flags kept *)
Definition reloc (l : rloc) (i : N) : rloc :=
  {| l_x1 := l_x1 l; l_y1 := l_y1 l; l_x2 := l_x2 l; l_y2 := l_y2 l; l_name := l_name l; l_idx := Some i;
     l_elev := l_elev l; l_oid := 0 |}.

(* the bound is that of the model's str_by_id, which looks an id up at position min (id-1) 1000000: only below that cap is
   it the plain lookup *)
Lemma loc_slot_reads_back L l slot i :
  loc_encode L l = Ok slot -> length (l_elev l) = 6%nat -> N.of_nat (length (sl_by_id L)) <= 1000000 ->
  loc_dec1 L slot i = Ok (reloc l i).
Proof.
  intros (sid & fl & Hsid & Hfl & ->)%loc_encode_inv Hlen Hsmall. fold (loc_val (l_x1 l) (l_y1 l) (l_x2 l) (l_y2 l) sid fl).
  rewrite loc_dec1_at, (flags_read_back _ _ _ _ (elevation_flags_rich _ Hlen) Hlen Hfl).
  destruct (id_by_str_resolves _ _ _ Hsmall Hsid) as [-> _]. reflexivity.
Qed.

Theorem an_emitted_location_slot_reads_back L l slot i0 :
  loc_encode L l = Ok slot -> length (l_elev l) = 6%nat -> N.of_nat (length (sl_by_id L)) <= 1000000 ->
  loc_is_unused slot = false ->                          (* content equal to an empty slot is the recorded C11 finding *)
  mrgn_decode_locs L [slot] i0 =
    Ok [{| l_x1 := l_x1 l; l_y1 := l_y1 l; l_x2 := l_x2 l; l_y2 := l_y2 l; l_name := l_name l; l_idx := Some (i0 + 1);
           l_elev := l_elev l; l_oid := 0 |}].
Proof.
  intros H Hlen Hsmall Hused. rewrite mrgn_decode_locs_walk.
  exact (walk_one_taken _ _ _ _ _ Hused (loc_slot_reads_back L l slot (i0 + 1) H Hlen Hsmall)).
Qed.

(* the whole emitted table, read back: the list a later load decodes holds at number k+1 exactly what slot k decodes to
   on its own *)
Theorem emitted_location_table_reads_back_slotwise L : forall slots i0,
  (forall k s, nth_error slots k = Some s -> exists p, mrgn_decode_locs L [s] (i0 + N.of_nat k) = Ok p) ->
  exists ls', mrgn_decode_locs L slots i0 = Ok ls' /\
    forall k s p, nth_error slots k = Some s -> mrgn_decode_locs L [s] (i0 + N.of_nat k) = Ok p ->
      assocN_last (i0 + N.of_nat k + 1) (by_idx ls') = assocN_last (i0 + N.of_nat k + 1) (by_idx p).
Proof.
  intros slots i0. setoid_rewrite mrgn_decode_locs_walk. apply (walk_reads_slotwise l_idx (loc_dec1_idx L)).
Qed.

Lemma by_idx_in ls l i : In l ls -> l_idx l = Some i -> In (i, l) (by_idx ls).
Proof. intros Hin Hi. apply in_keyed. auto. Qed.

Theorem saved_location_table_reads_back L ls v :
  N.of_nat (length (sl_by_id L)) <= 1000000 -> mrgn_encode L ls = Ok v ->
  (forall l, In l ls -> length (l_elev l) = 6%nat) ->
  exists ls', mrgn_decode L v = Ok ls' /\
    forall k l slot, assocN_last (N.of_nat k + 1) (by_idx ls) = Some l ->
      nth_error (vlist "_locations" v) k = Some slot -> loc_is_unused slot = false ->
      assocN_last (N.of_nat k + 1) (by_idx ls') =
        Some {| l_x1 := l_x1 l; l_y1 := l_y1 l; l_x2 := l_x2 l; l_y2 := l_y2 l; l_name := l_name l;
                l_idx := Some (N.of_nat k + 1); l_elev := l_elev l; l_oid := 0 |}.
Proof.
  intros Hsmall H Helev. apply mrgn_encode_inv in H as (slots & Hs & ->). rewrite mrgn_decode_walk.
  apply (table_reads_back l_idx (loc_dec1_idx L) reloc Hs eq_refl).
  intros l slot i Hl He _. apply loc_slot_reads_back; auto.
Qed.
