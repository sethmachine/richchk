(* C04, field level: for every supported action type, under the rebuilt lookups cx, each authored argument a of codec c
   sits in the saved record in the field the SPECIFICATION names, holding enc_arg cx c a; the type byte is the type's own
   number; every field the specification leaves unused is zero (Entries.written_fields at the generated action table). *)
From Coq Require Import String NArith List Bool.
From RC Require Import lib.Result model.Layout model.TrigTable model.RichCodec proofs.C05_proofs proofs.Entries
  gen.GenTrig gen.GenFlags spec.SpecTrig.
Import ListNotations.
Local Open Scope string_scope.
Local Open Scope list_scope.
Local Open Scope N_scope.

Theorem authored_action_reaches_the_spec_fields cx key args fl v :
  encode_entry_of cx gen_action_table action_flags_codec action_record_fields (ERich key args fl) = Ok v ->
  exists s, In s spec_action_table /\ se_id s = key /\
    forall f, In f action_record_fields -> f <> "_flags" ->
      match expected_src s f with
      | EZero => vint f v = 0
      | EOwnId => vint f v = key
      | EWavDuration => exists d, wav_duration cx args = Ok d /\ vint f v = d
      | EArg c a => exists x n, arg_get rarg a args = Ok x /\ enc_arg cx c x = Ok n /\ vint f v = n
      end.
Proof.
  intros H. destruct (written_fields _ _ _ _ action_table_matches _ _ _ _ _ H) as (te & s & fx & Hf & Hs & Hkey & M & Hfx & Hr & Hw).
  exists s. split; [assumption|]. split; [assumption|]. intros f Hin Hne%String.eqb_neq.
  specialize (Hw f Hin). rewrite Hne in Hw.
  exact (src_val_cases rarg (enc_arg cx) (wav_duration cx) (fun n => vint f v = n) _ _ _ _ Hw eq_refl).
Qed.
