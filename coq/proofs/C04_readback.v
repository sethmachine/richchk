(* C04, "loading the saved map returns rich objects equal to the authored ones", for one trigger entry of ANY of the 51
   action and 22 condition types: the record written for an authored entry is read back, by the transcoder of that same
   type, as an entry of the same type with the same flags and every argument the image of what was authored under
   decode-after-encode of its codec.  The codecs that need no object table (plain numbers, enumerations, AI scripts,
   strings) invert, so for those the value read back IS the authored one. *)
From Coq Require Import String NArith List Bool Lia PeanoNat.
From RC Require Import lib.Result lib.Bytes model.Layout model.Flags model.TrigTable model.RichCodec model.Str
  proofs.Flags_proofs proofs.C03_proofs proofs.C05_proofs proofs.Entries proofs.C10_entries proofs.C12_proofs
  proofs.Save_strings proofs.Utf8_inverse lib.Utf8 gen.GenTrig spec.SpecTrig gen.GenFlags gen.GenEnums.
Import ListNotations.
Local Open Scope string_scope.
Local Open Scope list_scope.
Local Open Scope N_scope.

Definition plain_codec (c : codec) : bool :=
  match c with CRaw | CEnum _ | CStr | CStrValue | CAiScript => true | _ => false end.

(* an authored enumeration argument is a member of its enumeration (the rich classes admit nothing else) *)
Definition arg_member (c : codec) (x : rarg) : Prop :=
  match c, x with CEnum E, AEnum n => enum_has E n = true | _, _ => True end.

Lemma ai_codec_inverts cx n v : enc_arg cx CAiScript (AAi n) = Ok v -> dec_arg cx CAiScript v = Ok (AAi n).
Proof.
  intros H. cbn [enc_arg dec_arg] in *. inv_bind H as bs Hbs Hk.
  destruct (Nat.eqb_spec (length bs) 4) as [El|]; [|discriminate]. inversion Hk; subst v.
  destruct (utf8_four_bytes _ _ Hbs El) as (Hlt & Hrt & Hdec). unfold ai_name. rewrite Hlt, Hrt, Hdec. reflexivity.
Qed.

Lemma plain_codec_inverts cx c x n :
  plain_codec c = true -> arg_member c x -> N.of_nat (length (sl_by_id (cx_str cx))) <= 1000000 ->
  enc_arg cx c x = Ok n -> dec_arg cx c n = Ok x.
Proof.
  intros Hp Hm Hsmall H. destruct c; try discriminate; destruct x; try discriminate; cbn [enc_arg dec_arg] in *.
  - inversion H; reflexivity.
  - inversion H; subst. cbn [arg_member] in Hm. rewrite Hm. reflexivity.
  - destruct (id_by_str_resolves _ _ _ Hsmall H) as [-> _]. reflexivity.
  - destruct (id_by_str_resolves _ _ _ Hsmall H) as [-> _]. reflexivity.
  - apply (ai_codec_inverts cx). exact H.
Qed.

Lemma dec_arg_plain_ctx cx cx' c n : plain_codec c = true -> cx_str cx = cx_str cx' -> dec_arg cx' c n = dec_arg cx c n.
Proof. intros Hp Hs. destruct c; try discriminate; cbn [dec_arg]; rewrite ?Hs; reflexivity. Qed.

Definition spec_entry_ok (fields : list string) (idf : string) (s : spec_entry) : bool :=
  src_eqb (expected_src s idf) EOwnId
  && forallb (fun row => let '(a, c, f) := row in
                (src_eqb (expected_src s f) (EArg c a) || (src_eqb (expected_src s f) EWavDuration && codec_eqb c CRaw))
                && existsb (String.eqb f) fields && negb (String.eqb f "_flags"))
             (se_args s).

Lemma spec_entry_ok_facts fields idf s :
  spec_entry_ok fields idf s = true ->
  expected_src s idf = EOwnId /\
  forall a c f, In (a, c, f) (se_args s) ->
    In f fields /\ String.eqb f "_flags" = false /\
    (expected_src s f = EArg c a \/ expected_src s f = EWavDuration /\ c = CRaw).
Proof.
  intros [Hown%src_eqb_eq Hargs]%andb_true_iff. split; [exact Hown|]. intros a c f Hin.
  rewrite forallb_forall in Hargs. specialize (Hargs _ Hin). cbv beta iota in Hargs.
  apply andb_true_iff in Hargs as [Hb Hnf%negb_true_iff]. apply andb_true_iff in Hb as [Hsrc Hinf].
  apply existsb_exists in Hinf as (f' & Hinf & <-%String.eqb_eq). repeat split; try assumption.
  apply orb_true_iff in Hsrc as [Hsrc%src_eqb_eq | [Hsrc%src_eqb_eq Hc%codec_eqb_eq]%andb_true_iff]; auto.
Qed.

Lemma spec_ok_own_id fields idf spec :
  forallb (spec_entry_ok fields idf) spec = true -> forall s, In s spec -> expected_src s idf = EOwnId.
Proof. rewrite forallb_forall. intros H s Hs. exact (proj1 (spec_entry_ok_facts _ _ _ (H s Hs))). Qed.

Section Readback.
  Variable table : list trig_entry.
  Variable spec : list spec_entry.
  Variable fields : list string.
  Variable idf enum : string.
  Variable flagc : flag_codec.
  Variable nflags : nat.

  Hypothesis Hmatch : tables_match fields table spec = true.
  Hypothesis Hspec : forallb (spec_entry_ok fields idf) spec = true.
  (* implied by C10_entries.table_ids_ok: table_keys_ok below *)
  Hypothesis Hkeys : forallb (fun g => enum_has enum (te_key g) && negb (te_key g =? NO_ENTRY)) table = true.
  Hypothesis Hnd : NoDup fields.
  Hypothesis Hidf : In idf fields /\ idf <> "_flags".
  Hypothesis Hfl : In "_flags" fields.
  (* nflags counts the codec's flag names; 5 is the number of bits the flag byte defines (a bound on the number written, not
     needed here); both are 5 for actions and for conditions *)
  Hypothesis Hflags : forall bs : list bool, length bs = nflags -> rich_roundtrip flagc 5 bs.
  Hypothesis Hnames : length (fc_dec flagc) = nflags.

  Theorem entry_reads_back cx cx' (R : rarg -> rarg -> Prop) key args fl v :
    encode_entry_of cx table flagc fields (ERich key args fl) = Ok v ->
    length fl = nflags ->
    (forall te a c f x n, find_entry key table = Some te -> In (a, c, f) (te_dec te) -> arg_get rarg a args = Ok x ->
       enc_arg cx c x = Ok n -> exists x', dec_arg cx' c n = Ok x' /\ R x x') ->
    exists te args',
      find_entry key table = Some te /\
      decode_entry_of cx' table enum idf flagc fields v = Ok (Some (ERich key args' fl)) /\
      forall a c f, In (a, c, f) (te_dec te) ->
        exists x', arg_get rarg a args' = Ok x' /\
          ((exists x, arg_get rarg a args = Ok x /\ R x x') \/
           (* the one computed field: the play time of a sound, taken from the sound's metadata when not authored *)
           (exists d, wav_duration cx args = Ok d /\ x' = AInt d)).
  Proof using Hmatch Hspec Hkeys Hnd Hidf Hfl Hflags Hnames.
    intros H Hlen Hinv.
    destruct (written_fields _ _ _ _ Hmatch _ _ _ _ _ H) as (te & s & fx & Hf & Hs & Hkey & M & Hfx & _ & Hw).
    destruct (find_entry_in _ _ _ Hf) as [Hin Htk].
    pose proof (written_id_field _ _ _ _ Hmatch _ _ _ _ _ _ H (proj1 Hidf) (proj2 Hidf) (spec_ok_own_id _ _ _ Hspec)) as Hid.
    rewrite forallb_forall in Hspec, Hkeys. destruct (spec_entry_ok_facts _ _ _ (Hspec _ Hs)) as [_ Hargs].
    destruct (andb_prop _ _ (Hkeys _ Hin)) as [Hen Hnz%negb_true_iff%N.eqb_neq]. rewrite Htk in Hen, Hnz.
    pose proof (Hw "_flags" Hfl) as Hfv. cbn in Hfv.
    (* each argument row reads its field of v, which holds the encoding of the authored argument (or the play time) *)
    assert (forall a c f, In (a, c, f) (te_dec te) ->
              exists x', rec_get f (val_rec fields v) = Ok (vint f v) /\ dec_arg cx' c (vint f v) = Ok x' /\
                ((exists x, arg_get rarg a args = Ok x /\ R x x') \/ (exists d, wav_duration cx args = Ok d /\ x' = AInt d)))
      as Hrow.
    { intros a c f Hrow. destruct (Hargs _ _ _ (proj1 (m_dec M _) Hrow)) as (Hinf & Hnf & Hsrc).
      specialize (Hw f Hinf). rewrite Hnf in Hw. rewrite rec_get_val_rec by assumption.
      destruct Hsrc as [Hsrc | [Hsrc ->]]; rewrite Hsrc in Hw; cbn [src_val] in Hw.
      - inv_bind Hw as x Hx Hn. destruct (Hinv _ _ _ _ _ _ Hf Hrow Hx Hn) as (x' & Hx' & HR).
        exists x'. split; [reflexivity|]. split; [exact Hx'|]. left. exists x. auto.
      - exists (AInt (vint f v)). split; [reflexivity|]. split; [reflexivity|]. right. exists (vint f v). auto. }
    destruct (decode_entry_ok rarg (dec_arg cx') te (val_rec fields v)) as [args' Hargs'].
    { intros a c f Hr. destruct (Hrow _ _ _ Hr) as (x' & Hg & Hd & _). eauto. }
    exists te, args'. split; [exact Hf|]. split.
    - rewrite <- Hid in *. apply decode_entry_of_inv. split; [reflexivity|]. split; [exact Hen|]. split; [exact Hnz|].
      exists te. split; [exact Hf|]. split; [exact Hargs'|]. rewrite Hfv. eapply flags_read_back; eauto. congruence.
    - intros a c f Hr. destruct (Hrow _ _ _ Hr) as (x' & Hg & Hd & Hcase).
      destruct (decode_entry_arg _ _ _ _ _ _ _ _ Hargs' (m_dec_nodup M) Hr) as (n0 & x0 & Hn0 & Hx0 & Hget).
      exists x'. split; [congruence | exact Hcase].
  Qed.

  (* an entry whose arguments are all plain numbers, enumeration members, strings or AI scripts, written under cx, is read
     back with exactly the authored arguments (a sound's play time being the computed one) by ANY later load whose string
     table is the one the save wrote - whatever that load's location, switch and unit-property tables are *)
  Corollary plain_entry_reads_back cx cx' key args fl v :
    encode_entry_of cx table flagc fields (ERich key args fl) = Ok v ->
    length fl = nflags -> N.of_nat (length (sl_by_id (cx_str cx))) <= 1000000 -> cx_str cx = cx_str cx' ->
    (forall te a c f x, find_entry key table = Some te -> In (a, c, f) (te_dec te) -> arg_get rarg a args = Ok x ->
       plain_codec c = true /\ arg_member c x) ->
    exists te args',
      find_entry key table = Some te /\
      decode_entry_of cx' table enum idf flagc fields v = Ok (Some (ERich key args' fl)) /\
      forall a c f, In (a, c, f) (te_dec te) ->
        arg_get rarg a args' = arg_get rarg a args \/
        (exists d, wav_duration cx args = Ok d /\ arg_get rarg a args' = Ok (AInt d)).
  Proof.
    intros H Hlen Hsmall Hstr Hplain.
    destruct (entry_reads_back cx cx' eq key args fl v H Hlen) as (te & args' & Hf & Hd & Hargs).
    - intros te a c f x n Hf Hrow Hx Hn. destruct (Hplain _ _ _ _ _ Hf Hrow Hx) as [Hp Hm].
      exists x. split; [|reflexivity]. rewrite (dec_arg_plain_ctx cx cx') by assumption. eapply plain_codec_inverts; eauto.
    - exists te, args'. split; [assumption|]. split; [assumption|]. intros a c f Hrow.
      destruct (Hargs _ _ _ Hrow) as (x' & Hx' & [(x & Hx & ->)|(d & Hd' & ->)]); [left; congruence | eauto].
  Qed.
End Readback.

Lemma action_spec_ok : forallb (spec_entry_ok action_record_fields "_action_id") spec_action_table = true.
Proof. vm_compute. reflexivity. Qed.
Lemma condition_spec_ok : forallb (spec_entry_ok condition_record_fields "_condition_id") spec_condition_table = true.
Proof. vm_compute. reflexivity. Qed.
Lemma table_keys_ok table enum idf :
  table_ids_ok table enum idf = true -> forallb (fun g => enum_has enum (te_key g) && negb (te_key g =? NO_ENTRY)) table = true.
Proof.
  intros Hok. apply forallb_forall. intros g Hg.
  destruct (proj2 (table_ids_ok_facts _ _ _ Hok) g Hg) as (_ & _ & _ & -> & Hnz%N.eqb_neq). rewrite Hnz. reflexivity.
Qed.

Definition action_keys_ok := table_keys_ok _ _ _ action_table_ids_ok.
Definition condition_keys_ok := table_keys_ok _ _ _ condition_table_ids_ok.

Theorem authored_action_reads_back_later cx cx' (R : rarg -> rarg -> Prop) key args fl v :
  encode_entry_of cx gen_action_table action_flags_codec action_record_fields (ERich key args fl) = Ok v ->
  length fl = 5%nat ->
  (forall te a c f x n, find_entry key gen_action_table = Some te -> In (a, c, f) (te_dec te) -> arg_get rarg a args = Ok x ->
     enc_arg cx c x = Ok n -> exists x', dec_arg cx' c n = Ok x' /\ R x x') ->
  exists te args',
    find_entry key gen_action_table = Some te /\
    decode_entry_of cx' gen_action_table "TriggerActionId" "_action_id" action_flags_codec action_record_fields v
      = Ok (Some (ERich key args' fl)) /\
    forall a c f, In (a, c, f) (te_dec te) ->
      exists x', arg_get rarg a args' = Ok x' /\
        ((exists x, arg_get rarg a args = Ok x /\ R x x') \/ (exists d, wav_duration cx args = Ok d /\ x' = AInt d)).
Proof.
  exact (entry_reads_back _ _ _ _ _ _ _ action_table_matches action_spec_ok action_keys_ok (proj1 record_fields_nodup)
           action_id_field action_flags_field action_flags_rich eq_refl cx cx' R key args fl v).
Qed.

Theorem authored_condition_reads_back_later cx cx' (R : rarg -> rarg -> Prop) key args fl v :
  encode_entry_of cx gen_condition_table condition_flags_codec condition_record_fields (ERich key args fl) = Ok v ->
  length fl = 5%nat ->
  (forall te a c f x n, find_entry key gen_condition_table = Some te -> In (a, c, f) (te_dec te) -> arg_get rarg a args = Ok x ->
     enc_arg cx c x = Ok n -> exists x', dec_arg cx' c n = Ok x' /\ R x x') ->
  exists te args',
    find_entry key gen_condition_table = Some te /\
    decode_entry_of cx' gen_condition_table "TriggerConditionId" "_condition_id" condition_flags_codec condition_record_fields v
      = Ok (Some (ERich key args' fl)) /\
    forall a c f, In (a, c, f) (te_dec te) ->
      exists x', arg_get rarg a args' = Ok x' /\
        ((exists x, arg_get rarg a args = Ok x /\ R x x') \/ (exists d, wav_duration cx args = Ok d /\ x' = AInt d)).
Proof.
  exact (entry_reads_back _ _ _ _ _ _ _ condition_table_matches condition_spec_ok condition_keys_ok (proj2 record_fields_nodup)
           condition_id_field condition_flags_field condition_flags_rich eq_refl cx cx' R key args fl v).
Qed.

Theorem authored_action_reads_back cx (R : rarg -> rarg -> Prop) key args fl v :
  encode_entry_of cx gen_action_table action_flags_codec action_record_fields (ERich key args fl) = Ok v ->
  length fl = 5%nat ->
  (forall te a c f x n, find_entry key gen_action_table = Some te -> In (a, c, f) (te_dec te) -> arg_get rarg a args = Ok x ->
     enc_arg cx c x = Ok n -> exists x', dec_arg cx c n = Ok x' /\ R x x') ->
  exists te args',
    find_entry key gen_action_table = Some te /\
    decode_entry_of cx gen_action_table "TriggerActionId" "_action_id" action_flags_codec action_record_fields v
      = Ok (Some (ERich key args' fl)) /\
    forall a c f, In (a, c, f) (te_dec te) ->
      exists x', arg_get rarg a args' = Ok x' /\
        ((exists x, arg_get rarg a args = Ok x /\ R x x') \/ (exists d, wav_duration cx args = Ok d /\ x' = AInt d)).
Proof. exact (authored_action_reads_back_later cx cx R key args fl v). Qed.

Theorem authored_condition_reads_back cx (R : rarg -> rarg -> Prop) key args fl v :
  encode_entry_of cx gen_condition_table condition_flags_codec condition_record_fields (ERich key args fl) = Ok v ->
  length fl = 5%nat ->
  (forall te a c f x n, find_entry key gen_condition_table = Some te -> In (a, c, f) (te_dec te) -> arg_get rarg a args = Ok x ->
     enc_arg cx c x = Ok n -> exists x', dec_arg cx c n = Ok x' /\ R x x') ->
  exists te args',
    find_entry key gen_condition_table = Some te /\
    decode_entry_of cx gen_condition_table "TriggerConditionId" "_condition_id" condition_flags_codec condition_record_fields v
      = Ok (Some (ERich key args' fl)) /\
    forall a c f, In (a, c, f) (te_dec te) ->
      exists x', arg_get rarg a args' = Ok x' /\
        ((exists x, arg_get rarg a args = Ok x /\ R x x') \/ (exists d, wav_duration cx args = Ok d /\ x' = AInt d)).
Proof. exact (authored_condition_reads_back_later cx cx R key args fl v). Qed.

Definition plain_action_reads_back :=
  plain_entry_reads_back _ _ _ _ _ _ _ action_table_matches action_spec_ok action_keys_ok (proj1 record_fields_nodup)
    action_id_field action_flags_field action_flags_rich eq_refl.

Theorem authored_plain_action_reads_back_identically cx key args fl v :
  encode_entry_of cx gen_action_table action_flags_codec action_record_fields (ERich key args fl) = Ok v ->
  length fl = 5%nat -> N.of_nat (length (sl_by_id (cx_str cx))) <= 1000000 ->
  (forall te a c f x, find_entry key gen_action_table = Some te -> In (a, c, f) (te_dec te) -> arg_get rarg a args = Ok x ->
     plain_codec c = true /\ arg_member c x) ->
  exists te args',
    find_entry key gen_action_table = Some te /\
    decode_entry_of cx gen_action_table "TriggerActionId" "_action_id" action_flags_codec action_record_fields v
      = Ok (Some (ERich key args' fl)) /\
    forall a c f, In (a, c, f) (te_dec te) ->
      arg_get rarg a args' = arg_get rarg a args \/
      (exists d, wav_duration cx args = Ok d /\ arg_get rarg a args' = Ok (AInt d)).
Proof. intros H Hlen Hsmall. exact (plain_action_reads_back cx cx key args fl v H Hlen Hsmall eq_refl). Qed.

Theorem authored_plain_condition_reads_back_identically cx key args fl v :
  encode_entry_of cx gen_condition_table condition_flags_codec condition_record_fields (ERich key args fl) = Ok v ->
  length fl = 5%nat -> N.of_nat (length (sl_by_id (cx_str cx))) <= 1000000 ->
  (forall te a c f x, find_entry key gen_condition_table = Some te -> In (a, c, f) (te_dec te) -> arg_get rarg a args = Ok x ->
     plain_codec c = true /\ arg_member c x) ->
  exists te args',
    find_entry key gen_condition_table = Some te /\
    decode_entry_of cx gen_condition_table "TriggerConditionId" "_condition_id" condition_flags_codec condition_record_fields v
      = Ok (Some (ERich key args' fl)) /\
    forall a c f, In (a, c, f) (te_dec te) ->
      arg_get rarg a args' = arg_get rarg a args \/
      (exists d, wav_duration cx args = Ok d /\ arg_get rarg a args' = Ok (AInt d)).
Proof.
  intros H Hlen Hsmall.
  exact (plain_entry_reads_back _ _ _ _ _ _ _ condition_table_matches condition_spec_ok condition_keys_ok
           (proj2 record_fields_nodup) condition_id_field condition_flags_field condition_flags_rich eq_refl
           cx cx key args fl v H Hlen Hsmall eq_refl).
Qed.
