(* C04, "loading the saved map ...": the string lookup a LATER load of the saved map works with is the very lookup the save
   encoded against (the one STR section of the output is the rebuilt table, and the load builds its lookup from exactly that
   section).  With C04_readback this gives: an authored action whose arguments are plain numbers, enumeration members, strings
   and AI scripts is read back by that load with exactly the authored arguments. *)
From Coq Require Import String NArith List Bool Lia PeanoNat.
From RC Require Import lib.Result lib.Bytes model.Layout model.Str model.ChkIo model.RichCodec model.RichIo
  model.Flags model.TrigTable proofs.C04_readback proofs.Save_shape gen.GenTrig gen.GenFlags.
Import ListNotations.
Local Open Scope string_scope.
Local Open Scope list_scope.
Local Open Scope N_scope.

Theorem load_after_save_uses_the_saved_string_table wd r d' cx' :
  save wd r = Ok d' -> decode_context d' = Ok cx' ->
  exists new_str L, rebuild_str r = Ok new_str /\ build_str_lookup 2 new_str = Ok L /\ cx_str cx' = L.
Proof.
  intros H Hc. destruct (save_inv _ _ _ H) as (b & Hb & Hm).
  destruct (decode_context_inv _ _ Hc) as (str & mv & Hstr & HL & _).
  rewrite (saved_str wd r b d' Hb Hm) in Hstr. injection Hstr as <-.
  exists (rb_str b), (rb_L b). split; [exact (rs_str Hb)|]. split; [exact (rs_lookup Hb)|].
  symmetry. exact (rebuilds_L r b _ _ Hb (rs_str Hb) HL).
Qed.

(* cx: any context whose string lookup is the save's *)
Theorem plain_action_survives_save_and_reload wd r d' cx' cx new_str L key args fl v :
  save wd r = Ok d' -> decode_context d' = Ok cx' ->
  rebuild_str r = Ok new_str -> build_str_lookup 2 new_str = Ok L -> cx_str cx = L ->
  N.of_nat (length (sl_by_id L)) <= 1000000 ->
  encode_entry_of cx gen_action_table action_flags_codec action_record_fields (ERich key args fl) = Ok v ->
  length fl = 5%nat ->
  (forall te a c f, find_entry key gen_action_table = Some te -> In (a, c, f) (te_dec te) -> plain_codec c = true) ->
  (forall te a c f x, find_entry key gen_action_table = Some te -> In (a, c, f) (te_dec te) -> arg_get rarg a args = Ok x ->
     arg_member c x) ->
  exists te args',
    find_entry key gen_action_table = Some te /\
    decode_entry_of cx' gen_action_table "TriggerActionId" "_action_id" action_flags_codec action_record_fields v
      = Ok (Some (ERich key args' fl)) /\
    forall a c f, In (a, c, f) (te_dec te) ->
      arg_get rarg a args' = arg_get rarg a args \/
      (exists d, wav_duration cx args = Ok d /\ arg_get rarg a args' = Ok (AInt d)).
Proof.
  intros Hs Hc Hr HL Hcx Hsmall He Hlen Hplain Hmem.
  destruct (load_after_save_uses_the_saved_string_table _ _ _ _ Hs Hc) as (ns & L' & Hns & HL' & Hcx').
  assert (L' = L) as -> by congruence.
  apply (plain_action_reads_back cx cx' key args fl v He Hlen).
  - rewrite Hcx. exact Hsmall.
  - congruence.
  - eauto.
Qed.
