(* C04, end to end for UNIT-PROPERTY arguments: the number a save writes into a Create-Unit-with-Properties action is resolved,
   by the context a later load of the saved map builds, to a set with properties equal to the authored ones. *)
From Coq Require Import String NArith List Bool Lia PeanoNat.
From RC Require Import lib.Result lib.Bytes model.Layout model.Str model.ChkIo model.RichCodec model.RichIo
  proofs.C07_slots proofs.C07_triggers proofs.C04_cuwps proofs.Save_shape proofs.Keyed gen.GenConsts.
Import ListNotations.
Local Open Scope string_scope.
Local Open Scope list_scope.
Local Open Scope N_scope.

Theorem the_saved_uprp_section wd r d' up :
  save wd r = Ok d' -> rebuild_uprp r = Ok up ->
  (forall s, In s r -> named "UPRP" s = true -> exists cs, s = RUprp cs) ->      (* nothing else goes by that name *)
  (length (filter (named "UPRP") r) <= 1)%nat ->
  exists v, uprp_encode up = Ok v /\ tabs_named "UPRP" d' = [v].
Proof.
  (* both premises already follow from rebuild_uprp not having raised *)
  intros H Hup _ _. destruct (save_inv _ _ _ H) as (b & Hb & Hm).
  rewrite (rs_uprp Hb) in Hup. apply Ok_inj in Hup as <-.
  exact (saved_uprp wd r b d' Hb Hm).
Qed.

Theorem cuwp_number_resolves_after_reload wd r d' cx' cs up cx c i v slot :
  save wd r = Ok d' -> decode_context d' = Ok cx' ->
  filter (named "UPRP") r = [RUprp cs] -> rebuild_uprp r = Ok up -> cx_cuwps cx = up ->
  NoDup (map fst (cby_idx cs)) ->
  (forall s, In s r -> named "UPRP" s = true -> exists cs0, s = RUprp cs0) ->
  (forall x, In x up -> length (c_vs x) = 6%nat /\ length (c_vu x) = 7%nat /\ length (c_flags x) = 5%nat) ->
  id_by_cuwp cx c = Ok i -> 1 <= i ->
  (* the slot of the emitted table that carries this number, not all zero *)
  uprp_encode up = Ok v -> nth_error (vlist "_cuwp_slots" v) (N.to_nat (i - 1)) = Some slot -> cuwp_is_unused slot = false ->
  exists k,
    rcuwp_eqb c k = true /\
    cuwp_by_id cx' i = Some {| c_hp := c_hp k; c_sh := c_sh k; c_en := c_en k; c_res := c_res k; c_hang := c_hang k;
                               c_flags := c_flags k; c_vs := c_vs k; c_vu := c_vu k; c_unk := c_unk k; c_pad := c_pad k;
                               c_idx := Some i |}.
Proof.
  intros Hs Hc Hf Hup Hcx Hnd Honly Hlens Hid Hi Hv Hslot Hu.
  destruct (saved_cuwp_number_names_the_set r cs up cx c i Hf Hup Hcx Hnd Hid) as (k & Hk & He).
  destruct (the_saved_uprp_section wd r d' up Hs Hup Honly) as (v' & Hv' & Htabs); [rewrite Hf; simpl; lia|].
  rewrite Hv in Hv'. apply Ok_inj in Hv' as <-.
  destruct (saved_cuwp_table_reads_back up v Hv Hlens) as (cs' & Hdec & Hread).
  assert (cx_cuwps cx' = cs') as Hcw.
  { destruct (decode_context_inv _ _ Hc) as (str & mv & _ & _ & _ & _ & _ & Hcw). rewrite Htabs in Hcw. congruence. }
  exists k. split; [exact He|].
  rewrite cuwp_by_id_keyed, Hcw, <- cby_idx_keyed.
  pose proof (Hread (N.to_nat (i - 1)) k slot) as Hr. rewrite N2Nat.id in Hr. replace (i - 1 + 1) with i in Hr by lia.
  rewrite (Hr Hk Hslot Hu). reflexivity.
Qed.
