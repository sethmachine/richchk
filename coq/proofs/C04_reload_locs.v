(* C04, end to end for LOCATION arguments: the number a save writes for a location is resolved, by the context a later load of
   the saved map builds, to a location with the authored rectangle, name and elevation flags.  Five facts composed: which number
   is written and what a later load decodes from the emitted table (C04_locations), what the one MRGN section of the output is
   (the_saved_location_section), which string lookup that load uses (C04_reload), that its context holds what it decoded
   (Save_shape.decode_context_inv). *)
From Coq Require Import String NArith List Bool Lia PeanoNat.
From RC Require Import lib.Result lib.Bytes model.Layout model.Str model.ChkIo model.TrigTable model.RichCodec
  model.RichIo proofs.C07_slots proofs.C04_locations proofs.C04_reload proofs.Save_shape
  proofs.Keyed gen.GenConsts.
Import ListNotations.
Local Open Scope string_scope.
Local Open Scope list_scope.
Local Open Scope N_scope.

Theorem the_saved_location_section wd r d' ls mr new_str SL :
  save wd r = Ok d' -> filter (named "MRGN") r = [RMrgn ls] -> rebuild_mrgn r = Ok mr ->
  rebuild_str r = Ok new_str -> build_str_lookup 2 new_str = Ok SL ->
  exists v, mrgn_encode SL (fst mr) = Ok v /\ tabs_named "MRGN" d' = [v].
Proof.
  (* this premise already follows from rebuild_mrgn not having raised (rebuild_mrgn_inv) *)
  intros H _ Hmr Hstr HSL. destruct (save_inv _ _ _ H) as (b & Hb & Hm).
  rewrite (rs_mrgn Hb) in Hmr. apply Ok_inj in Hmr as <-. rewrite <- (rebuilds_L r b new_str SL Hb Hstr HSL).
  exact (saved_mrgn wd r b d' Hb Hm).
Qed.

Theorem location_number_resolves_after_reload wd r d' cx' ls mr new_str SL l i v slot :
  save wd r = Ok d' -> decode_context d' = Ok cx' ->
  filter (named "MRGN") r = [RMrgn ls] -> rebuild_mrgn r = Ok mr ->
  rebuild_str r = Ok new_str -> build_str_lookup 2 new_str = Ok SL ->
  N.of_nat (length (sl_by_id SL)) <= 1000000 ->
  NoDup (map fst (by_idx ls)) -> (forall x, In x (fst mr) -> length (l_elev x) = 6%nat) ->
  find_loc_id l (snd mr) None = Some i -> 1 <= i ->
  (* the slot of the emitted table that carries this number (it exists for every number up to 255), not all zero *)
  mrgn_encode SL (fst mr) = Ok v -> nth_error (vlist "_locations" v) (N.to_nat (i - 1)) = Some slot -> loc_is_unused slot = false ->
  exists k0,
    rloc_eqb l k0 = true /\
    loc_by_id cx' i = Some {| l_x1 := l_x1 k0; l_y1 := l_y1 k0; l_x2 := l_x2 k0; l_y2 := l_y2 k0; l_name := l_name k0;
                             l_idx := Some i; l_elev := l_elev k0; l_oid := 0 |}.
Proof.
  intros Hs Hc Hf Hmr Hstr HSL Hsmall Hnd Helev Hfind Hi Hv Hslot Hu.
  destruct (saved_location_number_names_the_location r ls mr l i Hf Hmr Hnd Hfind) as (k0 & He & Hslotk).
  destruct (the_saved_location_section _ _ _ _ _ _ _ Hs Hf Hmr Hstr HSL) as (v' & Hv' & Htabs).
  rewrite Hv in Hv'. apply Ok_inj in Hv' as <-.
  destruct (load_after_save_uses_the_saved_string_table _ _ _ _ Hs Hc) as (ns & L' & Hns & HL' & Hcx').
  assert (L' = SL) as -> by congruence.
  destruct (saved_location_table_reads_back SL (fst mr) v Hsmall Hv Helev) as (ls' & Hdec & Hread).
  assert (cx_locs cx' = ls') as Hlocs.
  { destruct (decode_context_inv _ _ Hc) as (str & mv & _ & _ & Hmv & Hl & _). rewrite Htabs in Hmv. congruence. }
  exists k0. split; [exact He|].
  rewrite loc_by_id_keyed, Hlocs, <- by_idx_keyed. replace (i =? 0) with false by (symmetry; apply N.eqb_neq; lia).
  pose proof (Hread (N.to_nat (i - 1)) (set_idx k0 i) slot) as Hr. rewrite N2Nat.id in Hr. replace (i - 1 + 1) with i in Hr by lia.
  rewrite (Hr Hslotk Hslot Hu). reflexivity.
Qed.
