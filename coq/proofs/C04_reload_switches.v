(* C04, end to end for SWITCH arguments: the number a save writes for a named switch is resolved, by the context a later load of
   the saved map builds, to the switch of that number carrying the authored name. *)
From Coq Require Import String NArith List Bool Lia PeanoNat.
From RC Require Import lib.Result lib.Bytes model.Layout model.Str model.ChkIo model.RichCodec model.RichIo
  proofs.C07_slots proofs.C07_triggers proofs.C04_reload proofs.C04_switches gen.GenConsts proofs.Keyed proofs.Save_shape
  proofs.RichTables.
Import ListNotations.
Local Open Scope string_scope.
Local Open Scope list_scope.
Local Open Scope N_scope.

Theorem the_saved_swnm_section wd r d' sw new_str SL :
  save wd r = Ok d' -> RichIo.rebuild_swnm r = Ok sw -> rebuild_str r = Ok new_str -> build_str_lookup 2 new_str = Ok SL ->
  (forall s, In s r -> named "SWNM" s = true -> exists ss, s = RSwnm ss) ->      (* nothing else goes by that name *)
  (length (filter (named "SWNM") r) <= 1)%nat ->
  exists v, swnm_encode SL (fst sw) = Ok v /\ tabs_named "SWNM" d' = [v].
Proof.
  intros H Hsw Hstr HSL Honly Hone. destruct (save_inv _ _ _ H) as (b & Hb & Hm).
  rewrite (rs_swnm Hb) in Hsw. apply Ok_inj in Hsw as <-. rewrite <- (rebuilds_L r b new_str SL Hb Hstr HSL).
  exact (saved_swnm wd r b d' Hm Honly Hone).
Qed.

Theorem switch_number_resolves_after_reload wd r d' cx' sw new_str SL s k :
  save wd r = Ok d' -> decode_context d' = Ok cx' ->
  RichIo.rebuild_swnm r = Ok sw -> rebuild_str r = Ok new_str -> build_str_lookup 2 new_str = Ok SL ->
  N.of_nat (length (sl_by_id SL)) <= 1000000 ->
  (forall x, In x r -> named "SWNM" x = true -> exists ss, x = RSwnm ss) -> (length (filter (named "SWNM") r) <= 1)%nat ->
  find_switch_id s (snd sw) None = Some k -> (N.to_nat k < N.to_nat MAX_SWITCHES)%nat ->
  rstr_empty (s_name s) = false ->
  (forall u, In (u, k) (snd sw) -> rstr_empty (s_name u) = false -> sw_norm u = sw_norm s) ->
  exists entry, assocN_last k (cx_switch_by_id cx') = Some entry /\ sw_norm entry = sw_norm s /\ s_idx entry = Some k.
Proof.
  intros Hs Hc Hsw Hstr HSL Hsmall Honly Hone Hfind Hk Hnamed Huniq.
  destruct (saved_switch_number_names_the_switch r sw s k Hsw Hfind Hk Hnamed Huniq) as (slot & Hslot & Hname & Hidx).
  destruct (the_saved_swnm_section wd r d' sw new_str SL Hs Hsw Hstr HSL Honly Hone) as (v & Hv & Htabs).
  destruct (load_after_save_uses_the_saved_string_table _ _ _ _ Hs Hc) as (ns & L' & Hns & HL' & Hcx').
  assert (L' = SL) as -> by congruence.
  assert (cx_switch_by_id cx' = swnm_lookup SL v) as Hby.
  { destruct (decode_context_inv _ _ Hc) as (str & mv & _ & _ & _ & _ & Hby & _). rewrite Htabs in Hby. congruence. }
  pose proof (an_emitted_switch_table_reads_back SL (fst sw) v (N.to_nat k) slot Hsmall Hv Hslot) as Hnth.
  rewrite N2Nat.id in Hnth.
  eexists. split; [|split].
  - rewrite Hby. apply assocN_last_unique; [apply swnm_lookup_keys_nodup|]. eapply nth_error_In. exact Hnth.
  - unfold sw_norm in *. cbn [s_name]. exact Hname.
  - reflexivity.
Qed.
