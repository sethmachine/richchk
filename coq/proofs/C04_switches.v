(* C04, "every new reference resolves to the authored object", switches, through the save's own rebuild: the number the save
   writes for a NAMED switch s (RichSwnmLookup.get_id_by_switch over the rebuilt table) names a slot of the rebuilt switch
   table that carries that number and s's name - provided no switch with ANOTHER name claims the same number (the recorded
   finding two-switches-one-index, which the premise excludes).  Then the emitted table as a later load reads it: entry k of
   that load's switch lookup is switch k with the name written for it. *)
From Coq Require Import String NArith List Bool Lia PeanoNat.
From RC Require Import lib.Result lib.Bytes model.Layout model.RichCodec model.RichIo model.Alloc
  proofs.Save_strings proofs.LastHit proofs.C07_slots proofs.C07_triggers gen.GenConsts proofs.Keyed proofs.RichTables.
Import ListNotations.
Local Open Scope string_scope.
Local Open Scope list_scope.
Local Open Scope N_scope.

(* two switches the dictionary takes for one key have the same name, when one of them has a name at all *)
Lemma key_eqb_named_same_name s u :
  rswitch_key_eqb s u = true -> rstr_empty (s_name s) = false ->
  sw_norm u = sw_norm s /\ rstr_empty (s_name u) = false.
Proof.
  intros H Hs. assert (sw_norm u = sw_norm s) as E.
  { destruct (s_idx s) as [i|] eqn:Ei.
    - symmetry. exact (proj2 (proj1 (key_eqb_indexed s u i Ei) H)).
    - unfold sw_norm. rewrite (key_eqb_unindexed s u Ei Hs H). reflexivity. }
  split; [exact E|]. apply named_iff_norm. rewrite E. apply named_iff_norm. exact Hs.
Qed.

Lemma rebuild_swnm_slot r sw k :
  RichIo.rebuild_swnm r = Ok sw -> (N.to_nat k < N.to_nat MAX_SWITCHES)%nat ->
  nth_error (fst sw) (N.to_nat k) = Some (swnm_slot (snd sw) k).
Proof.
  intros H Hk. destruct (rebuild_swnm_inv r sw H) as (outs & _ & ->).
  cbn [fst snd]. rewrite nth_error_map, (nth_error_range _ _ Hk), N2Nat.id. reflexivity.
Qed.

(* a slot that a named switch u was assigned to carries u's name, unless a switch with another name was assigned to it too *)
Lemma swnm_slot_named assigned u k :
  In (u, k) assigned -> rstr_empty (s_name u) = false ->
  (forall u', In (u', k) assigned -> rstr_empty (s_name u') = false -> sw_norm u' = sw_norm u) ->
  sw_norm (swnm_slot assigned k) = sw_norm u /\ s_idx (swnm_slot assigned k) = Some k.
Proof.
  intros Hin Hun Huniq. unfold swnm_slot.
  set (named_by_slot := filter _ (map _ assigned)).
  assert (In (k, u) named_by_slot) as Hnb.
  { apply filter_In. split; [apply in_map_iff; exists (u, k); auto|]. cbn [snd]. rewrite Hun. reflexivity. }
  destruct (proj2 (assocN_last_some_iff k named_by_slot) (in_map fst _ _ Hnb)) as [u' Hu']. rewrite Hu'.
  split; [|reflexivity].
  apply assocN_last_in, filter_In in Hu' as [Hin' Hn']. apply in_map_iff in Hin' as ([u0 k0] & Heq & Hin0).
  inversion Heq; subst k0 u0. apply negb_true_iff in Hn'. exact (Huniq u' Hin0 Hn').
Qed.

Theorem saved_switch_number_names_the_switch r sw s k :
  RichIo.rebuild_swnm r = Ok sw -> find_switch_id s (snd sw) None = Some k -> (N.to_nat k < N.to_nat MAX_SWITCHES)%nat ->
  rstr_empty (s_name s) = false ->
  (* no switch with another name claims the same number *)
  (forall u, In (u, k) (snd sw) -> rstr_empty (s_name u) = false -> sw_norm u = sw_norm s) ->
  exists slot, nth_error (fst sw) (N.to_nat k) = Some slot /\ sw_norm slot = sw_norm s /\ s_idx slot = Some k.
Proof.
  intros H Hfind Hk Hnamed Huniq. exists (swnm_slot (snd sw) k). split; [exact (rebuild_swnm_slot r sw k H Hk)|].
  rewrite find_switch_id_fold in Hfind. apply last_hit_sound in Hfind as [Hc|([u k'] & Hin & He & Hv)]; [discriminate|].
  cbn [fst snd] in He, Hv. inversion Hv; subst k'.
  destruct (key_eqb_named_same_name _ _ He Hnamed) as [Hnu Hun]. rewrite <- Hnu.
  apply swnm_slot_named; [exact Hin | exact Hun |]. intros u' Hu' Hn'. rewrite Hnu. exact (Huniq u' Hu' Hn').
Qed.

Theorem an_emitted_switch_table_reads_back L ss v j s :
  N.of_nat (length (sl_by_id L)) <= 1000000 -> swnm_encode L ss = Ok v -> nth_error ss j = Some s ->
  nth_error (swnm_lookup L v) j = Some (N.of_nat j, {| s_name := s_name s; s_idx := Some (N.of_nat j); s_oid := 0 |}).
Proof.
  intros Hsmall H Hn. destruct (swnm_encode_inv _ _ _ H) as (ids & Hids & ->).
  destruct (mapM_nth _ _ _ _ _ Hids Hn) as (sid & Hsid & Hnid).
  rewrite swnm_lookup_numbered, nth_error_map, numbered_nth. rewrite vints_single, Hnid. cbn [option_map fst snd].
  destruct (id_by_str_resolves _ _ _ Hsmall Hsid) as [-> _]. reflexivity.
Qed.
