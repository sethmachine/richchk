(* C04, the sound table, read back by a later load: a sound the save wrote into slot k is found by that load at slot k under
   the same path. *)
From Coq Require Import String NArith List Bool Lia PeanoNat.
From RC Require Import lib.Result lib.Bytes model.Layout model.RichCodec proofs.Save_strings gen.GenConsts
  proofs.Keyed proofs.RichTables.
Import ListNotations.
Local Open Scope string_scope.
Local Open Scope list_scope.
Local Open Scope N_scope.

Theorem an_emitted_sound_table_reads_back L ws v k p :
  N.of_nat (length (sl_by_id L)) <= 1000000 -> wav_encode L ws = Ok v ->
  (k < N.to_nat MAX_WAV_FILES)%nat ->
  assocN_last (N.of_nat k) (map (fun w : rstr * N => (snd w, fst w)) ws) = Some p ->
  p <> RNull ->                                        (* a sound has a path *)
  In (p, N.of_nat k) (wav_decode L v).
Proof.
  intros Hsmall H Hk Hslot Hp. destruct (wav_encode_inv _ _ _ H) as (ids & Hids & ->).
  destruct (mapM_nth _ _ _ _ _ Hids (nth_error_range _ _ Hk)) as (sid & Hsid & Hn). cbv beta in Hsid. rewrite Hslot in Hsid.
  destruct (id_by_str_resolves _ _ _ Hsmall Hsid) as [Hres Hrange].
  rewrite wav_decode_numbered. rewrite vints_single. apply in_flat_map. exists (N.of_nat k, sid). split.
  - apply (nth_error_In _ k). rewrite numbered_nth, Hn. reflexivity.
  - cbn [fst snd]. destruct (N.eqb_spec sid UNUSED_WAV_STRING_ID) as [->|_]; [|left; congruence].
    (* the number that marks an unused slot is 0, which reads back as no string *)
    exfalso. change UNUSED_WAV_STRING_ID with 0 in Hres. rewrite str_by_id_0 in Hres. congruence.
Qed.
