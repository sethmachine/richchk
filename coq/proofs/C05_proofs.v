(* C05: the generated trigger tables equal the specification tables (tables_match, evaluated), and what that buys for
   every run of the table interpreter, whatever the codecs are: a matched entry writes into each record field the value
   of the source the SPECIFICATION names for it and reads each argument from the field the specification assigns to it. *)
From Coq Require Import String NArith List Bool Lia.
From RC Require Import lib.Result model.TrigTable gen.GenTrig spec.SpecTrig.
Import ListNotations.
Local Open Scope N_scope.

Lemma action_table_matches : tables_match action_record_fields gen_action_table spec_action_table = true.
Proof. vm_compute. reflexivity. Qed.

Lemma condition_table_matches : tables_match condition_record_fields gen_condition_table spec_condition_table = true.
Proof. vm_compute. reflexivity. Qed.

Lemma tables_match_Forall2 fields : forall g s,
  tables_match fields g s = true -> Forall2 (fun x y => entry_matches fields x y = true) g s.
Proof.
  induction g as [|x g IH]; intros [|y s] H; simpl in H; try discriminate; constructor.
  - apply andb_true_iff in H. tauto.
  - apply IH. apply andb_true_iff in H. tauto.
Qed.

Lemma tables_match_in fields g s x :
  tables_match fields g s = true -> In x g -> exists y, In y s /\ entry_matches fields x y = true.
Proof.
  intros H Hin. destruct (Forall2_in_l _ _ _ _ (tables_match_Forall2 _ _ _ H) Hin) as (y & Hy & Hm).
  exists y. split; [exact (in_combine_r _ _ _ _ Hy) | exact Hm].
Qed.

Lemma tables_match_in_spec fields : forall g s y,
  tables_match fields g s = true -> In y s -> exists x, In x g /\ entry_matches fields x y = true.
Proof.
  intros g s y H Hin. destruct (Forall2_in_l _ _ _ _ (Forall2_flip _ _ _ (tables_match_Forall2 _ _ _ H)) Hin) as (x & Hx & Hm).
  exists x. split; [exact (in_combine_r _ _ _ _ Hx) | exact Hm].
Qed.

Lemma nodup_strs_spec l : nodup_strs l = true -> NoDup l.
Proof.
  induction l as [|x r IH]; simpl; intros H; constructor; apply andb_true_iff in H as [H Hr]; [|auto].
  apply negb_true_iff in H. exact (not_existsb_eqb _ _ _ String.eqb_refl H).
Qed.

Lemma codec_eqb_eq a b : codec_eqb a b = true -> a = b.
Proof. destruct a, b; simpl; intros H; try discriminate; try reflexivity. apply String.eqb_eq in H. congruence. Qed.

Lemma arg_eqb_eq x y : arg_eqb x y = true -> x = y.
Proof.
  destruct x as [[a c] f], y as [[b d] g]. unfold arg_eqb. simpl. intros H.
  apply andb_true_iff in H as [H H3]. apply andb_true_iff in H as [H1 H2].
  apply String.eqb_eq in H1, H3. apply codec_eqb_eq in H2. congruence.
Qed.

Lemma src_eqb_eq a b : src_eqb a b = true -> a = b.
Proof.
  destruct a, b; simpl; intros H; try discriminate; try reflexivity.
  apply andb_true_iff in H as [H1 H2]. apply codec_eqb_eq in H1. apply String.eqb_eq in H2. congruence.
Qed.

Lemma subset_args_in a b x : subset_args a b = true -> In x a -> In x b.
Proof.
  unfold subset_args. rewrite forallb_forall. intros H Hin. specialize (H _ Hin).
  apply existsb_exists in H as (y & Hy & He). apply arg_eqb_eq in He. subst. assumption.
Qed.

(* entry_matches as propositions *)
Set Implicit Arguments.
Record matched (fields : list string) (g : trig_entry) (s : spec_entry) : Prop := {
  m_key : te_key g = se_id s;
  m_own : te_own_id g = se_id s;
  m_model : te_model g = se_model s;
  m_dec : forall x, In x (te_dec g) <-> In x (se_args s);
  m_args_nodup : NoDup (map (fun x => fst (fst x)) (se_args s));
  m_fields_nodup : NoDup (map snd (se_args s));
  m_dec_nodup : NoDup (map (fun x => fst (fst x)) (te_dec g));
  m_enc_nodup : NoDup (map fst (te_enc g));
  m_all : forall f, In f fields -> In (f, expected_src s f) (te_enc g);
  m_src : forall f src, In (f, src) (te_enc g) -> In f fields /\ src = expected_src s f }.
Unset Implicit Arguments.

Lemma entry_matches_spec fields g s : entry_matches fields g s = true -> matched fields g s.
Proof.
  unfold entry_matches. intros H. rewrite !andb_true_iff in H.
  destruct H as [[[[[[[[[[Hkey Hown] Hmod] Hsub1] Hsub2] Hlen] Hnd_args] Hnd_flds] Hnd_enc] Hall] Hrows].
  apply N.eqb_eq in Hkey, Hown. apply String.eqb_eq in Hmod. apply PeanoNat.Nat.eqb_eq in Hlen.
  apply nodup_strs_spec in Hnd_args, Hnd_flds, Hnd_enc. rewrite forallb_forall in Hall, Hrows.
  assert (forall x, In x (te_dec g) <-> In x (se_args s)) as Hdec by (split; eapply subset_args_in; eauto).
  assert (forall f src, In (f, src) (te_enc g) -> In f fields /\ src = expected_src s f) as Hsrc.
  { intros f src Hin. apply Hrows in Hin. apply andb_true_iff in Hin as [Ha Hb]. cbn [fst snd] in *.
    apply existsb_exists in Ha as (y & Hy & <-%String.eqb_eq). apply src_eqb_eq in Hb. auto. }
  assert (NoDup (map (fun x => fst (fst x)) (te_dec g))) as Hnd_dec.
  { (* the generated argument names are distinct because the spec's are: same elements, same length *)
    apply NoDup_incl_NoDup with (l := map (fun x => fst (fst x)) (se_args s)); [assumption | rewrite !map_length; lia |].
    intros y Hy. apply in_map_iff in Hy as (x & <- & Hx).
    apply (in_map (fun x : string * codec * string => fst (fst x))). apply Hdec. assumption. }
  assert (forall f, In f fields -> In (f, expected_src s f) (te_enc g)) as Hall'.
  { intros f Hf. apply Hall in Hf. apply existsb_exists in Hf as (y & Hy & <-%String.eqb_eq).
    apply in_map_iff in Hy as ([f' src] & <- & Hin). cbn [fst]. destruct (Hsrc _ _ Hin) as [_ <-]. exact Hin. }
  exact {| m_key := Hkey; m_own := Hown; m_model := Hmod; m_dec := Hdec; m_args_nodup := Hnd_args;
           m_fields_nodup := Hnd_flds; m_dec_nodup := Hnd_dec; m_enc_nodup := Hnd_enc; m_all := Hall'; m_src := Hsrc |}.
Qed.

(* mapM of rows that each yield their own key with a computed value is an association list (arg_get at any value type;
   rec_get is arg_get at N) *)
Lemma mapM_keyed_get {A V} (key : A -> string) (g : A -> result V) : forall rows out x,
  mapM (fun r => do v <- g r; Ok (key r, v)) rows = Ok out -> NoDup (map key rows) -> In x rows ->
  exists v, g x = Ok v /\ arg_get V (key x) out = Ok v.
Proof.
  induction rows as [|r0 rows IH]; intros out x H Hnd Hin; [destruct Hin|].
  apply mapM_cons_inv in H as (p0 & out' & Hp0 & Hr & ->). inv_bind Hp0 as v0 Hv0 Hk. inversion Hk; subst p0.
  inversion Hnd as [|? ? Hnotin Hnd']; subst. simpl.
  destruct Hin as [->|Hin]; [rewrite String.eqb_refl; eauto|].
  destruct (String.eqb_spec (key x) (key r0)) as [E|_]; [|eauto].
  destruct Hnotin. rewrite <- E. apply in_map. assumption.
Qed.

Section Generic.
  Variable rval : Type.
  Variable dec_codec : codec -> N -> result rval.
  Variable enc_codec : codec -> rval -> result N.
  Variable wav_duration : list (string * rval) -> result N.

  (* the number written for a source, by an entry whose own type number is own *)
  Definition src_val (own : N) (args : list (string * rval)) (src : enc_src) : result N :=
    match src with
    | EZero => Ok 0
    | EOwnId => Ok own
    | EWavDuration => wav_duration args
    | EArg c a => do x <- arg_get rval a args; enc_codec c x
    end.

  Lemma encode_entry_rows e args :
    encode_entry rval enc_codec wav_duration e args
    = mapM (fun row => do n <- src_val (te_own_id e) args (snd row); Ok (fst row, n)) (te_enc e).
  Proof.
    unfold encode_entry. apply mapM_ext_in. intros [f src] _.
    destruct src; try reflexivity. simpl. destruct (arg_get rval a args); reflexivity.
  Qed.

  Lemma decode_entry_rows e r :
    decode_entry rval dec_codec e r
    = mapM (fun row => do x <- (do v <- rec_get (snd row) r; dec_codec (snd (fst row)) v); Ok (fst (fst row), x)) (te_dec e).
  Proof.
    unfold decode_entry. apply mapM_ext_in. intros [[a c] f] _. simpl. destruct (rec_get f r); reflexivity.
  Qed.

  Lemma encode_entry_field e args rec f src :
    encode_entry rval enc_codec wav_duration e args = Ok rec ->
    NoDup (map fst (te_enc e)) -> In (f, src) (te_enc e) ->
    exists n, src_val (te_own_id e) args src = Ok n /\ rec_get f rec = Ok n.
  Proof.
    rewrite encode_entry_rows. (* rec_get is arg_get N, by conversion *)
    exact (mapM_keyed_get fst (fun row => src_val (te_own_id e) args (snd row)) _ _ (f, src)).
  Qed.

  Lemma decode_entry_arg e r args a c f :
    decode_entry rval dec_codec e r = Ok args ->
    NoDup (map (fun x => fst (fst x)) (te_dec e)) -> In (a, c, f) (te_dec e) ->
    exists v x, rec_get f r = Ok v /\ dec_codec c v = Ok x /\ arg_get rval a args = Ok x.
  Proof.
    rewrite decode_entry_rows. intros H Hnd Hin.
    destruct (mapM_keyed_get _ _ _ _ (a, c, f) H Hnd Hin) as (x & Hx & Hg). cbn [fst snd] in Hx, Hg.
    inv_bind Hx as v Hv Hd. eauto.
  Qed.

  (* what a field holds, by the kind of its source: P n says "the field holds n" *)
  Lemma src_val_cases (P : N -> Prop) own args src n :
    src_val own args src = Ok n -> P n ->
    match src with
    | EZero => P 0
    | EOwnId => P own
    | EWavDuration => exists d, wav_duration args = Ok d /\ P d
    | EArg c a => exists x v, arg_get rval a args = Ok x /\ enc_codec c x = Ok v /\ P v
    end.
  Proof.
    intros H HP. destruct src; cbn [src_val] in H; [apply Ok_inj in H as <-; exact HP.. | eauto |].
    inv_bind H as x Hx Hv. eauto.
  Qed.

  Lemma decode_entry_ok e r :
    (forall a c f, In (a, c, f) (te_dec e) -> exists n x, rec_get f r = Ok n /\ dec_codec c n = Ok x) ->
    exists args, decode_entry rval dec_codec e r = Ok args.
  Proof.
    intros H. rewrite decode_entry_rows. apply mapM_all_ok. apply Forall_forall. intros [[a c] f] Hin.
    destruct (H _ _ _ Hin) as (n & x & Hn & Hx). cbn [fst snd]. rewrite Hn. cbn [bind]. rewrite Hx. cbn [bind]. eauto.
  Qed.

  (* what a matched pair (generated entry g, specification entry s) guarantees for every run of the interpreter *)
  Definition entry_correct (fields : list string) (idfield : string) (g : trig_entry) (s : spec_entry) : Prop :=
    te_key g = se_id s /\ te_own_id g = se_id s /\ te_model g = se_model s /\
    (* encode: each argument is written, through its codec, to the field the spec assigns to it;
       the type byte is the type's own number; every field the spec leaves unused is zero *)
    (forall args rec, encode_entry rval enc_codec wav_duration g args = Ok rec ->
       (forall f, In f fields ->
          match expected_src s f with
          | EZero => rec_get f rec = Ok 0
          | EOwnId => rec_get f rec = Ok (se_id s)
          | EWavDuration => exists d, wav_duration args = Ok d /\ rec_get f rec = Ok d
          | EArg c a => exists x v, arg_get rval a args = Ok x /\ enc_codec c x = Ok v /\ rec_get f rec = Ok v
          end)) /\
    (* decode: each argument is read, through its codec, from the field the spec assigns to it *)
    (forall r args, decode_entry rval dec_codec g r = Ok args ->
       forall a c f, In (a, c, f) (se_args s) ->
         exists v x, rec_get f r = Ok v /\ dec_codec c v = Ok x /\ arg_get rval a args = Ok x) /\
    (* no two arguments share a field, no argument is stored twice *)
    NoDup (map snd (se_args s)) /\ NoDup (map (fun x => fst (fst x)) (se_args s)) /\
    expected_src s idfield = EOwnId.

  Lemma matched_entry_field fields g s args rec f :
    matched fields g s -> encode_entry rval enc_codec wav_duration g args = Ok rec -> In f fields ->
    exists n, src_val (se_id s) args (expected_src s f) = Ok n /\ rec_get f rec = Ok n.
  Proof.
    intros M Henc Hf. rewrite <- (m_own M).
    exact (encode_entry_field _ _ _ _ _ Henc (m_enc_nodup M) (m_all M f Hf)).
  Qed.

  Lemma matched_entry_correct fields idfield g s :
    entry_matches fields g s = true -> expected_src s idfield = EOwnId -> entry_correct fields idfield g s.
  Proof.
    intros Hm Hid. pose proof (entry_matches_spec _ _ _ Hm) as M.
    split; [exact (m_key M)|]. split; [exact (m_own M)|]. split; [exact (m_model M)|].
    split.
    { intros args rec Henc f Hf. destruct (matched_entry_field _ _ _ _ _ _ M Henc Hf) as (n & Hn & Hg).
      exact (src_val_cases (fun n => rec_get f rec = Ok n) _ _ _ _ Hn Hg). }
    split.
    { intros r args Hd a c f Hin%(m_dec M). exact (decode_entry_arg _ _ _ _ _ _ Hd (m_dec_nodup M) Hin). }
    exact (conj (m_fields_nodup M) (conj (m_args_nodup M) Hid)).
  Qed.
End Generic.

(* the two tables differ in (fields, id field, generated table, specification table) only *)
Lemma every_generated_entry_is_correct rval dec_codec enc_codec wav_duration fields idf gen spec :
  tables_match fields gen spec = true -> (forall s, In s spec -> expected_src s idf = EOwnId) ->
  forall g, In g gen -> exists s, In s spec /\ entry_correct rval dec_codec enc_codec wav_duration fields idf g s.
Proof.
  intros Hm Hown g Hg. destruct (tables_match_in _ _ _ _ Hm Hg) as (s & Hs & Hms).
  exists s. split; [assumption|]. apply matched_entry_correct; auto.
Qed.

(* every type of the specification table has a registered transcoder, and vice versa *)
Theorem registered_types_are_the_spec_types :
  map te_key gen_action_table = map se_id spec_action_table /\
  map te_key gen_condition_table = map se_id spec_condition_table /\
  length gen_action_table = 51%nat /\ length gen_condition_table = 22%nat.
Proof. vm_compute. repeat split; reflexivity. Qed.
