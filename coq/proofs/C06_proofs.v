(* C06: the generated layouts are the layouts transcribed from the format description, which are well formed;
   the offset theorems on those layouts; and a concrete UPRP payload with a field read at its offset. *)
From Coq Require Import String NArith List Bool Lia PeanoNat.
From RC Require Import lib.Result lib.Bytes lib.Tree model.Layout proofs.Layout_offsets
  gen.GenLayouts spec.SpecLayouts.
Import ListNotations.
Local Open Scope N_scope.

(* generated decode layout = spec; generated encode layout = spec up to the strict-count flag *)
Definition matches_spec (g : string * (layout * layout)) (s : string * layout) : bool :=
  String.eqb (fst g) (fst s) && layout_eqb (fst (snd g)) (snd s) && layout_eqb (erase (snd (snd g))) (snd s).

Fixpoint all2 {A B} (f : A -> B -> bool) (a : list A) (b : list B) : bool :=
  match a, b with
  | [], [] => true
  | x :: a', y :: b' => f x y && all2 f a' b'
  | _, _ => false
  end.

Lemma gen_layouts_match_spec : all2 matches_spec gen_layouts spec_layouts = true.
Proof. vm_compute. reflexivity. Qed.

Lemma all2_in {A B} (f : A -> B -> bool) a b x :
  all2 f a b = true -> In x a -> exists y, In y b /\ f x y = true.
Proof.
  revert b; induction a as [|x0 a IH]; intros [|y0 b] H Hin; simpl in *; try discriminate; [tauto|].
  apply andb_true_iff in H as [H1 H2]. destruct Hin as [->|Hin].
  - exists y0. auto.
  - destruct (IH _ H2 Hin) as (y & Hy & Hf). exists y. auto.
Qed.

Lemma spec_layouts_wf : forallb (fun e => wf_l (snd e)) spec_layouts = true.
Proof. vm_compute. reflexivity. Qed.

Lemma spec_layout_wf name spec : In (name, spec) spec_layouts -> wf_l spec = true.
Proof. intros Hin. pose proof spec_layouts_wf as H. rewrite forallb_forall in H. exact (H _ Hin). Qed.

Lemma gen_layout_is_spec name dec enc :
  In (name, (dec, enc)) gen_layouts ->
  exists spec, In (name, spec) spec_layouts /\ dec = spec /\ erase enc = spec /\ wf_l spec = true.
Proof.
  intros Hin. destruct (all2_in _ _ _ _ gen_layouts_match_spec Hin) as ([n s] & Hs & Hm).
  unfold matches_spec in Hm. simpl in Hm.
  apply andb_true_iff in Hm as [Hm He]. apply andb_true_iff in Hm as [Hn Hd].
  apply String.eqb_eq in Hn. subst n. apply Layout_proofs.layout_eqb_eq in Hd. apply Layout_proofs.layout_eqb_eq in He.
  exists s. eauto using spec_layout_wf.
Qed.

Lemma spec_field_at_offset name spec :
  In (name, spec) spec_layouts ->
  forall fuel bs v rest p o w x,
    decode_l fuel spec bs = Ok (v, rest) -> locate spec p = Some (o, Prim w) -> get spec v p = Some x ->
    x = VInt (le_decode (slice bs o w)).
Proof. intros Hin fuel bs v rest p o w x. apply field_at_offset. exact (spec_layout_wf _ _ Hin). Qed.

Lemma spec_encode_at_offset name spec :
  In (name, spec) spec_layouts ->
  forall fuel bs v rest p o w x pre,
    bytes_ok bs -> decode_l fuel spec bs = Ok (v, rest) -> encode_l spec v = Ok pre ->
    locate spec p = Some (o, Prim w) -> get spec v p = Some (VInt x) -> (o + w <= length pre)%nat ->
    le_decode (slice pre o w) = x.
Proof.
  intros Hin fuel bs v rest p o w x pre Hok. apply encode_at_offset; [exact Hok | exact (spec_layout_wf _ _ Hin)].
Qed.

(* non-vacuity of the offset theorem: a concrete UPRP payload, slot 10's resource amount *)
Example uprp_field_example :
  let payload := (repeat 0 208 ++ [1; 2; 3; 4] ++ repeat 0 1068)%N in
  exists v, decode_l 2000 spec_UPRP payload = Ok (v, []) /\
            get spec_UPRP v [SField "_cuwp_slots"; SIndex 10; SField "_resource_amount"] = Some (VInt 67305985).
Proof. eexists. split; vm_compute; reflexivity. Qed.
