(* C06 for the string tables (STR: w = 2, STRx: w = 4): the decoded count, every decoded offset and the
   string data are read from exactly the places the format description gives them. *)
From Coq Require Import String NArith List Bool Lia PeanoNat.
From RC Require Import lib.Result lib.Bytes lib.Utf8 model.Layout model.Str proofs.Layout_offsets proofs.Str_proofs.
Import ListNotations.
Local Open Scope N_scope.

Lemma read_offsets_spec w : forall fuel n bs offs rest,
  read_offsets fuel w n bs = Ok (offs, rest) ->
  N.of_nat (length offs) = n /\ rest = skipn (w * length offs) bs /\
  forall k, (k < length offs)%nat -> nth_error offs k = Some (le_decode (slice bs (w * k) w)).
Proof.
  intros fuel n bs offs rest H. apply read_offsets_run in H.
  induction H as [bs|n bs v r offs rest Hn Hu _ (Hc & -> & Hnth)].
  - simpl. rewrite Nat.mul_0_r. repeat split. intros k Hk. lia.
  - apply unpack_ok_inv in Hu as (_ & -> & ->).
    cbn [length]. split; [lia|]. split.
    + rewrite skipn_skipn. f_equal. lia.
    + intros [|k] Hk; simpl.
      * rewrite Nat.mul_0_r. reflexivity.
      * rewrite (Hnth k), slice_skipn by lia. replace (w * S k)%nat with (w + w * k)%nat by lia. reflexivity.
Qed.

Theorem str_fields_at_spec_offsets w bs m :
  str_decode w bs = Ok m ->
  ss_num m = le_decode (slice bs 0 w) /\
  N.of_nat (length (ss_offsets m)) = ss_num m /\
  (forall k, (k < length (ss_offsets m))%nat ->
     nth_error (ss_offsets m) k = Some (le_decode (slice bs (w + w * k) w))) /\
  split_nul [] (skipn (w + w * length (ss_offsets m)) bs) = Ok (ss_strings m).
Proof.
  intros H. apply str_decode_inv in H as (r1 & r2 & Hn & Ho & Hs).
  apply unpack_ok_inv in Hn as (_ & En & ->).
  destruct (read_offsets_spec _ _ _ _ _ _ Ho) as (Hc & -> & Hnth).
  split; [exact En|]. split; [exact Hc|]. split.
  - intros k Hk. rewrite (Hnth k Hk), slice_skipn. reflexivity.
  - rewrite skipn_skipn in Hs. exact Hs.
Qed.

(* each string is the run of bytes up to its terminating NUL, in order, starting where the offsets end;
   a byte >= 128 or a missing final NUL is an error, never a silently different text *)
Lemma split_nul_spec : forall bs cur strs,
  split_nul cur bs = Ok strs ->
  (bs = [] /\ cur = [] /\ strs = []) \/
  exists s rest strs', strs = (rev cur ++ s) :: strs' /\ bs = s ++ 0 :: rest /\
                       Forall (fun b => 0 < b < 128) s /\ split_nul [] rest = Ok strs'.
Proof.
  intros bs cur strs H. apply split_nul_run in H.
  induction H as [|cur r strs Hr _ _|cur b r strs Hb _ IH].
  - auto.
  - right. exists [], r, strs. rewrite app_nil_r. auto.
  - right. destruct IH as [(_ & Hc & _)|(s & rest & strs' & -> & -> & Hf & Hr)].
    + discriminate Hc.
    + exists (b :: s), rest, strs'. simpl. rewrite <- app_assoc. auto.
Qed.
