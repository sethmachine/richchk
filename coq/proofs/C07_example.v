(* Non-vacuity of C07_preexisting_triggers_are_unchanged_byte_for_byte: a concrete map (string table, one location, one
   unit-property slot, one trigger that shows a text, centres on the location, creates units with the property slot and
   sets switch 5) and a concrete edit (a new trigger with a NEW text, a NEW index-less location and a NEW nameless switch)
   meet every premise of the theorem; all of it is computed inside the kernel from the map's bytes. *)
From Coq Require Import String NArith List Bool Lia PeanoNat.
From RC Require Import lib.Result lib.Bytes lib.Tree model.Layout model.Str model.StrEditor model.Alloc model.ChkIo
  model.TrigTable model.RichCodec model.RichIo proofs.Alloc_proofs proofs.C08_proofs proofs.C07_slots
  proofs.C07_triggers.
Import ListNotations.
Local Open Scope list_scope.
Local Open Scope N_scope.

Lemma rstr_eqb_eq a b : rstr_eqb a b = true -> a = b.
Proof. destruct a, b; simpl; intros H; try discriminate; [reflexivity | apply list_N_eqb_eq in H; subst; reflexivity]. Qed.

Definition rsw_beq (a b : rswitch) : bool :=
  rstr_eqb (s_name a) (s_name b) && optN_eqb (s_idx a) (s_idx b) && (s_oid a =? s_oid b).

Lemma rsw_beq_eq a b : rsw_beq a b = true -> a = b.
Proof.
  destruct a as [n1 i1 o1], b as [n2 i2 o2]. unfold rsw_beq. simpl. intros H.
  apply andb_true_iff in H as [H H3]. apply andb_true_iff in H as [H1 H2].
  apply rstr_eqb_eq in H1. apply N.eqb_eq in H3. subst.
  destruct i1 as [x|], i2 as [y|]; simpl in H2; try discriminate; [apply N.eqb_eq in H2; subst|]; reflexivity.
Qed.

Lemma existsb_in_sw s l : existsb (rsw_beq s) l = true -> In s l.
Proof. intros H. apply existsb_exists in H as (x & Hx & He). apply rsw_beq_eq in He. subst. exact Hx. Qed.

Definition arg_okb (T : list (list N)) (ls : list rloc) (cs : list rcuwp) (r0 r' : list rsection) (x : rarg) : bool :=
  match x with
  | AStr RNull => true
  | AStr (RText t) => mem_str t T
  | AStrV p => mem_str p T
  | ALoc l => match l_idx l with Some i => memN i (map fst (by_idx ls)) | None => false end
  | ACuwp c => match c_idx c with
               | Some i => match assocN_last i (cby_idx cs) with Some c' => rcuwp_eqb c c' | None => false end
               | None => false
               end
  | ASwitch s => match s_idx s with
                 | Some _ => existsb (rsw_beq s) (flat_map section_switches r0) && existsb (rsw_beq s) (flat_map section_switches r')
                 | None => false
                 end
  | _ => true
  end.

Lemma arg_okb_ok T ls cs r0 r' x : arg_okb T ls cs r0 r' x = true -> arg_ok T ls cs r0 r' x.
Proof.
  destruct x as [n|id|l|s|p|c|sw|nm|]; cbn [arg_okb arg_ok]; intros H.
  - exact Logic.I.
  - exact Logic.I.
  - destruct (l_idx l) as [i|]; [|discriminate]. exists i. split; [reflexivity | apply memN_in; exact H].
  - destruct s as [|t]; [exact Logic.I | simpl; apply mem_str_in; exact H].
  - apply mem_str_in. exact H.
  - destruct (c_idx c) as [i|]; [|discriminate]. destruct (assocN_last i (cby_idx cs)) as [c'|] eqn:E; [|discriminate].
    exists i, c'. auto.
  - destruct (s_idx sw) as [k|]; [|discriminate]. apply andb_true_iff in H as [H1 H2].
    exists k. split; [reflexivity|]. split; apply existsb_in_sw; assumption.
  - exact Logic.I.
  - exact Logic.I.
Qed.

Definition entry_okb T ls cs r0 r' (e : rentry) : bool :=
  match e with ERaw _ => true | ERich _ args _ => forallb (fun ax => arg_okb T ls cs r0 r' (snd ax)) args end.

Definition trigger_okb T ls cs r0 r' (t : rtrigger) : bool :=
  forallb (entry_okb T ls cs r0 r') (t_conds t) && forallb (entry_okb T ls cs r0 r') (t_acts t).

Lemma entry_okb_ok T ls cs r0 r' e : entry_okb T ls cs r0 r' e = true -> entry_ok T ls cs r0 r' e.
Proof.
  destruct e as [r|key args fl]; [intros _; exact Logic.I|]. cbn [entry_okb entry_ok]. intros H a x Hin.
  rewrite forallb_forall in H. apply arg_okb_ok. exact (H (a, x) Hin).
Qed.

Lemma trigger_okb_ok T ls cs r0 r' t : trigger_okb T ls cs r0 r' t = true -> trigger_ok T ls cs r0 r' t.
Proof.
  unfold trigger_okb. intros H. apply andb_true_iff in H as [Hc Ha]. rewrite forallb_forall in Hc, Ha.
  split; intros e He; apply entry_okb_ok; [apply Hc | apply Ha]; exact He.
Qed.

Definition le4 (n : N) : bytes := [n; 0; 0; 0].

Definition action (loc text wav time g1 g2 : N) (argtype id quant : N) : bytes :=
  le4 loc ++ le4 text ++ le4 wav ++ le4 time ++ le4 g1 ++ le4 g2 ++ [argtype; 0] ++ [id; quant; 0; 0; 0; 0].

Definition w_trigger : bytes :=
  (repeat 0 15 ++ [22] ++ repeat 0 4) ++ repeat 0 (15 * 20)                               (* conditions: Always *)
  ++ action 0 2 0 0 0 0 0 9 0          (* Display Text: string 2 *)
  ++ action 1 0 0 0 0 0 0 10 0         (* Center View: location 1 *)
  ++ action 1 0 0 0 0 1 0 11 3         (* Create 3 units (type 0) for player 0 at location 1 with property slot 1 *)
  ++ action 0 0 0 0 0 5 0 13 4         (* Set Switch 5 *)
  ++ repeat 0 (60 * 32)
  ++ le4 0 ++ [1] ++ repeat 0 26 ++ [0].

Definition w_map : bytes :=
  frame_all [(codes_of_string "STR ", [2; 0; 6; 0; 8; 0; 97; 0; 98; 0]);
             (codes_of_string "MRGN", le4 1 ++ le4 2 ++ le4 3 ++ le4 4 ++ [1; 0; 0; 0] ++ repeat 0 (254 * 20));
             (codes_of_string "UPRP", [1; 0; 1; 0; 0; 50; 0; 0; 0; 0; 0; 0; 0; 0; 0; 0; 0; 0; 0; 0] ++ repeat 0 (63 * 20));
             (codes_of_string "TRIG", w_trigger)].

Definition unwrapl {A} (r : result (list A)) : list A := match r with Ok l => l | Raise _ => [] end.

Definition w_r0 : list rsection := unwrapl (do d <- chk_decode w_map; load d).

Definition w_new : rtrigger :=
  {| t_conds := [];
     t_acts := [ERich 9 [("_text"%string, AStr (RText [99]))] [false; false; false; false; false];
                ERich 10 [("_location"%string,
                           ALoc {| l_x1 := 5; l_y1 := 6; l_x2 := 7; l_y2 := 8; l_name := RText [100]; l_idx := None;
                                   l_elev := [true; true; true; true; true; true]; l_oid := 7 |})]
                      [false; false; false; false; false];
                ERich 13 [("_switch"%string, ASwitch {| s_name := RNull; s_idx := None; s_oid := 9 |});
                          ("_switch_action"%string, AEnum 4)] [false; false; false; false; false]];
     t_players := [0] |}.

Definition w_r' : list rsection := unwrapl (add_triggers [w_new] w_r0).

Definition w_m : str_section := {| ss_num := 2; ss_offsets := [6; 8]; ss_strings := [[97]; [98]] |}.
Definition w_ls : list rloc := flat_map (fun s => match s with RMrgn ls => ls | _ => [] end) w_r0.
Definition w_cs : list rcuwp := flat_map (fun s => match s with RUprp cs => cs | _ => [] end) w_r0.
Definition w_ts : list rtrigger := flat_map (fun s => match s with RTrig ts => ts | _ => [] end) w_r0.

Definition cleanb (s : list N) : bool := forallb (fun c => (0 <? c) && (c <? 128)) s.
Lemma cleanb_clean l : forallb cleanb l = true -> Forall clean l.
Proof.
  intros H. apply Forall_forall. intros s Hs. rewrite forallb_forall in H. specialize (H s Hs).
  apply Forall_forall. intros c Hc. unfold cleanb in H. rewrite forallb_forall in H. specialize (H c Hc).
  apply andb_true_iff in H as [A B]. apply N.ltb_lt in A, B. split; assumption.
Qed.

Lemma w_wf : wf_table 2 w_m [2; 0; 6; 0; 8; 0; 97; 0; 98; 0].
Proof.
  constructor; simpl.
  - reflexivity.
  - repeat constructor; lia.
  - vm_compute. reflexivity.
  - repeat constructor.
    + exists 0%nat. split; [reflexivity | simpl; lia].
    + eexists. vm_compute. reflexivity.
    + exists 2%nat. split; [reflexivity | simpl; lia].
    + eexists. vm_compute. reflexivity.
Qed.

(* Everything below is evaluated from the map's bytes.  A closed evaluation is a conversion the checker repeats, and constants
   are not shared between conversions: so the rich map is computed once as a shape (w_r0_is), everything decidable about it
   once as one boolean (w_checks), and the rest is read off these. *)
Lemma w_r0_is : w_r0 = [RDecodedStr "STR " 2 w_m; RMrgn w_ls; RUprp w_cs; RTrig w_ts].
Proof. vm_compute. reflexivity. Qed.

Lemma w_r'_is : w_r' = [RDecodedStr "STR " 2 w_m; RMrgn w_ls; RUprp w_cs; RTrig (w_ts ++ [w_new])].
Proof. unfold w_r'. rewrite w_r0_is. reflexivity. Qed.

Lemma w_checks :
  forallb cleanb (flat_map section_strings w_r0) && forallb cleanb (flat_map section_strings w_r')
  && forallb (trigger_okb [[97]; [98]] w_ls w_cs w_r0 w_r') w_ts
  && Nat.eqb (length w_ts) 1 && Nat.eqb (length (flat_map (fun t => t_acts t) w_ts)) 4
  && is_ok (save [] w_r0) && is_ok (save [] w_r') = true.
Proof. vm_compute. reflexivity. Qed.

(* the premises, and the size of the witness: one old trigger, of four actions *)
Example the_premises_hold :
  filter (named "STR ") w_r0 = [RDecodedStr "STR " 2 w_m] /\ filter (named "STR ") w_r' = [RDecodedStr "STR " 2 w_m] /\
  build_lookup 2 w_m = Ok [[97]; [98]] /\
  Forall clean (flat_map section_strings w_r0) /\ Forall clean (flat_map section_strings w_r') /\
  filter (named "MRGN") w_r0 = [RMrgn w_ls] /\ filter (named "MRGN") w_r' = [RMrgn w_ls] /\
  filter (named "UPRP") w_r0 = [RUprp w_cs] /\ filter (named "UPRP") w_r' = [RUprp w_cs] /\
  nth_error w_r0 3 = Some (RTrig w_ts) /\ nth_error w_r' 3 = Some (RTrig (w_ts ++ [w_new])) /\
  Forall (trigger_ok [[97]; [98]] w_ls w_cs w_r0 w_r') w_ts /\
  length w_ts = 1%nat /\ length (flat_map (fun t => t_acts t) w_ts) = 4%nat /\
  is_ok (save [] w_r0) = true /\ is_ok (save [] w_r') = true.
Proof.
  (* every goal is closed by name: `assumption`, `repeat apply .. in` or a stray `reflexivity` would have the unifier compare
     closed terms by evaluating save *)
  pose proof w_checks as H.
  apply andb_prop in H as [H S']. apply andb_prop in H as [H S0]. apply andb_prop in H as [H N4].
  apply andb_prop in H as [H N1]. apply andb_prop in H as [H HT]. apply andb_prop in H as [C0 C'].
  repeat match goal with |- _ /\ _ => split end.
  - (* STR, both maps *) rewrite w_r0_is. reflexivity.
  - rewrite w_r'_is. reflexivity.
  - (* its lookup *) reflexivity.
  - (* clean texts *) apply cleanb_clean, C0.
  - apply cleanb_clean, C'.
  - (* MRGN *) rewrite w_r0_is. reflexivity.
  - rewrite w_r'_is. reflexivity.
  - (* UPRP *) rewrite w_r0_is. reflexivity.
  - rewrite w_r'_is. reflexivity.
  - (* TRIG at position 3 *) rewrite w_r0_is. reflexivity.
  - rewrite w_r'_is. reflexivity.
  - (* trigger_ok *) apply Forall_forall. intros t Ht. apply trigger_okb_ok. rewrite forallb_forall in HT. exact (HT t Ht).
  - (* one trigger, four actions *) apply Nat.eqb_eq, N1.
  - apply Nat.eqb_eq, N4.
  - (* both saves succeed *) exact S0.
  - exact S'.
Qed.

Definition w_d0 : list dsection := unwrapl (save [] w_r0).
Definition w_d' : list dsection := unwrapl (save [] w_r').

Lemma ok_unwrapl {A} (x : result (list A)) : is_ok x = true -> x = Ok (unwrapl x).
Proof. destruct x; [reflexivity | discriminate]. Qed.

Example the_old_trigger_is_unchanged :
  exists v0 v', nth_error w_d0 3 = Some (DTab "TRIG" v0) /\ nth_error w_d' 3 = Some (DTab "TRIG" v') /\
    forall k tv, nth_error (vlist "_triggers" v0) k = Some tv -> nth_error (vlist "_triggers" v') k = Some tv.
Proof.
  destruct the_premises_hold as (P1 & P2 & P3 & P4 & P5 & P6 & P7 & P8 & P9 & P10 & P11 & P12 & _ & _ & S0 & S').
  exact (preexisting_triggers_survive_edits_bytewise w_r0 w_r' [] w_d0 w_d' w_m _ _ w_ls w_cs 3 w_ts [w_new]
           P1 P2 w_wf P3 P4 P5 P6 P7 P8 P9 P10 P11 P12 (ok_unwrapl _ S0) (ok_unwrapl _ S')).
Qed.
