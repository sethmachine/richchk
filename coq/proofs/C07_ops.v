(* C07 over edit HISTORIES: any sequence of editor operations (adding triggers built from any pool of new objects, upserting
   unit settings) rewrites the rich map section by section (edits_are_sectionwise): names stay, and every section it does not
   address stays where and as it was; hence (C07_untouched) the sound table is emitted as the unedited save emits it. *)
From Coq Require Import String NArith List Bool Lia PeanoNat.
From RC Require Import lib.Result lib.Bytes model.Layout model.Str model.StrEditor model.ChkIo model.TrigTable
  model.RichCodec model.RichIo proofs.C08_proofs proofs.Save_shape proofs.Save_sizes proofs.C07_untouched.
Import ListNotations.
Local Open Scope string_scope.
Local Open Scope list_scope.

Definition edit_only (o : aop) : bool := match o with OpSaveReload => false | _ => true end.

Definition untouched_by (ops : list aop) (s : rsection) : bool :=
  match s with
  | RTrig _ => negb (existsb (fun o => match o with OpAddTriggers _ => true | _ => false end) ops)
  | RUnis _ n _ => negb (existsb (fun o => match o with OpUpsertUnits m _ => String.eqb m n | _ => false end) ops)
  | _ => true
  end.

Lemma untouched_by_cons o ops s : untouched_by (o :: ops) s = untouched_by [o] s && untouched_by ops s.
Proof. destruct s; simpl; rewrite ?orb_false_r, ?negb_orb; reflexivity. Qed.

(* r is r0 rewritten section by section: names stay, and a section no operation addresses stays as it is *)
Definition sectionwise (ops : list aop) (r0 r : list rsection) : Prop :=
  exists g, r = map g r0 /\ forall s, (forall n, named n (g s) = named n s) /\ (untouched_by ops s = true -> g s = s).

Lemma edit_is_sectionwise p o r r' : edit_only o = true -> apply_op p r o = Ok r' -> sectionwise [o] r r'.
Proof.
  destruct o as [ts|name us|]; [| |discriminate]; intros _ H; cbn [apply_op] in H.
  - inv_bind H as ts' Hts H. destruct (add_triggers_inv _ _ _ H) as (ts0 & _ & ->).
    exists (fun s => match s with RTrig _ => RTrig (ts0 ++ ts') | x => x end). split; [reflexivity|]. intros s. split.
    + intros n. destruct s; reflexivity.
    + intros Hu. destruct s; try reflexivity. discriminate Hu.
  - destruct (upsert_units_inv _ _ _ _ H) as (us' & ->).
    exists (fun s => match s with RUnis nw n _ => if String.eqb n name then RUnis nw n us' else s | x => x end).
    split; [reflexivity|]. intros s. split.
    + intros n. destruct s as [| |nw m us0| | | | | |]; try reflexivity. destruct (String.eqb m name); reflexivity.
    + intros Hu. destruct s as [| |nw m us0| | | | | |]; try reflexivity.
      cbn [untouched_by existsb] in Hu. rewrite String.eqb_sym. destruct (String.eqb name m); [discriminate | reflexivity].
Qed.

Theorem edits_are_sectionwise p ops : forall r0 r,
  forallb edit_only ops = true ->
  fold_left (fun acc o => do r <- acc; apply_op p r o) ops (Ok r0) = Ok r -> sectionwise ops r0 r.
Proof.
  induction ops as [|o ops IH]; intros r0 r He H; simpl in H.
  - apply Ok_inj in H. subst r. exists (fun s => s). split; [symmetry; apply map_id | auto].
  - simpl in He. apply andb_true_iff in He as [Ho He].
    destruct (apply_op p r0 o) as [r1|e] eqn:E1; [|rewrite fold_raise in H; discriminate].
    destruct (edit_is_sectionwise p o r0 r1 Ho E1) as (g1 & -> & H1), (IH _ _ He H) as (g2 & -> & H2).
    exists (fun s => g2 (g1 s)). split; [apply map_map|]. intros s. split.
    + intros n. rewrite (proj1 (H2 _)). apply H1.
    + rewrite untouched_by_cons. intros Hu. apply andb_true_iff in Hu as [Hu1 Hu2].
      rewrite (proj2 (H1 s) Hu1). exact (proj2 (H2 s) Hu2).
Qed.

Theorem edits_keep_untouched_sections p ops : forall r0 r,
  forallb edit_only ops = true ->
  fold_left (fun acc o => do r <- acc; apply_op p r o) ops (Ok r0) = Ok r ->
  forall i s, nth_error r0 i = Some s -> untouched_by ops s = true -> nth_error r i = Some s.
Proof.
  intros r0 r He H i s Hn Hu. destruct (edits_are_sectionwise p ops r0 r He H) as (g & -> & Hg).
  rewrite nth_error_map, Hn. cbn [option_map]. f_equal. apply Hg, Hu.
Qed.

(* the decoded STR section is addressed by no editor operation: the history keeps it, and keeps it the only one *)
Theorem edits_keep_the_decoded_str p ops : forall r0 r,
  forallb rich_form_sec r0 = true -> forallb edit_only ops = true ->
  fold_left (fun acc o => do r <- acc; apply_op p r o) ops (Ok r0) = Ok r ->
  filter (named "STR ") r = filter (named "STR ") r0.
Proof.
  intros r0 r Hrf He H. destruct (edits_are_sectionwise p ops r0 r He H) as (g & -> & Hg).
  apply filter_map_fixed. intros s Hs. split; [apply Hg|]. intros Hp. apply Hg.
  rewrite forallb_forall in Hrf. specialize (Hrf s Hs).
  destruct s as [|ts|nw n us| | | | | |]; try reflexivity.
  - vm_compute in Hp. discriminate.
  - (* a unit-settings section is never called "STR " in rich form *)
    cbn [named] in Hp. cbn [rich_form_sec] in Hrf. apply String.eqb_eq in Hp. subst n. vm_compute in Hrf. discriminate.
Qed.

Theorem sound_table_survives_any_edit_history p ops r0 r wd0 wd d0 d m bin T i ws :
  forallb rich_form_sec r0 = true -> forallb edit_only ops = true ->
  fold_left (fun acc o => do r <- acc; apply_op p r o) ops (Ok r0) = Ok r ->
  filter (named "STR ") r0 = [RDecodedStr "STR " 2 m] ->
  wf_table 2 m bin -> build_lookup 2 m = Ok T ->
  Forall clean (flat_map section_strings r0) -> Forall clean (flat_map section_strings r) ->
  nth_error r0 i = Some (RWav ws) -> names_known T (RWav ws) ->
  save wd0 r0 = Ok d0 -> save wd r = Ok d ->
  nth_error d i = nth_error d0 i.
Proof.
  intros Hrf He H Hf Hwf HT Hc0 Hc Hn Hk Hs0 Hs.
  eapply (untouched_string_section_is_identical r0 r wd0 wd d0 d m bin T i (RWav ws)); eauto.
  - rewrite (edits_keep_the_decoded_str p ops r0 r Hrf He H). exact Hf.
  - eapply edits_keep_untouched_sections; eauto.
Qed.
