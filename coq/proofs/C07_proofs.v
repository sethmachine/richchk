(* C07: additive edits leave what exists alone — the model-level facts the property is composed of. *)
From Coq Require Import String NArith List Bool Lia.
From RC Require Import lib.Result lib.Bytes model.Layout model.Str model.StrEditor model.Alloc model.ChkIo
  model.TrigTable model.RichCodec model.RichIo proofs.C08_proofs proofs.C09_proofs proofs.Save_shape.
Import ListNotations.
Local Open Scope string_scope.
Local Open Scope list_scope.
Local Open Scope N_scope.

Theorem add_triggers_keeps_existing_triggers new r r' i ts :
  add_triggers new r = Ok r' -> nth_error r i = Some (RTrig ts) ->
  (forall j ts', nth_error r j = Some (RTrig ts') -> j = i) ->          (* one trigger section *)
  nth_error r' i = Some (RTrig (ts ++ new)) /\
  forall k t, nth_error ts k = Some t -> nth_error (ts ++ new) k = Some t.
Proof.
  intros H Hn Huniq. destruct (add_triggers_inv _ _ _ H) as (ts0 & Hin & ->).
  apply In_nth_error in Hin as [j Hj]. rewrite (Huniq j ts0 Hj), Hn in Hj. inversion Hj; subst ts0. split.
  - rewrite nth_error_map, Hn. reflexivity.
  - intros k t Hk. rewrite nth_error_app1; [assumption | apply nth_error_Some; congruence].
Qed.

(* C08's add_strings_correct on the rebuild that precedes a save *)
Theorem rebuild_str_keeps_every_string_id r m m' bin bin' :
  filter (named "STR ") r = [RDecodedStr "STR " 2 m] ->
  wf_table 2 m bin -> Forall clean (flat_map section_strings r) ->
  rebuild_str r = Ok m' -> str_encode 2 m' = Ok bin' ->
  forall i o s, nth_error (ss_offsets m) i = Some o -> resolve bin o = Ok s ->
    exists o', nth_error (ss_offsets m') i = Some o' /\ resolve bin' o' = Ok s.
Proof.
  intros Hf Hwf Hc Hr He. rewrite (rebuild_str_eq _ _ _ _ Hf) in Hr.
  destruct (add_strings_correct 2 _ _ _ _ _ Hwf Hc Hr He) as (_ & Hkeep & _). exact Hkeep.
Qed.

Theorem new_location_slots_were_empty existing reqs outs :
  add_locations existing reqs = Ok outs -> forall i, In i (placed_ids outs) -> ~ In i existing.
Proof. intros H. destruct (add_locations_sound _ _ _ H) as (_ & _ & Hfree & _). exact Hfree. Qed.

Theorem new_unit_property_slots_were_empty existing reqs outs :
  add_cuwp_slots existing reqs = Ok outs -> forall i, In i (placed_ids outs) -> ~ In i existing.
Proof. intros H. destruct (add_cuwp_slots_sound _ _ _ H) as (_ & _ & Hfree & _). exact Hfree. Qed.

(* the known limitation, as a refutation on the model: with the trigger list split over two TRIG sections, adding one
   trigger replaces BOTH sections by the first one's extended list *)
Example split_trig_refuted :
  let t := {| t_conds := []; t_acts := []; t_players := [] |} in
  let t2 := {| t_conds := []; t_acts := []; t_players := [1] |} in
  add_triggers [t] [RTrig [t]; RTrig [t2]] = Ok [RTrig [t; t]; RTrig [t; t]].
Proof. reflexivity. Qed.
