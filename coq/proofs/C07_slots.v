(* The three tables a save rebuilds (locations, unit-property sets, switches), inverted down to what the allocation engine
   guarantees of the slots it hands out (Alloc_proofs.placed_of, C09_proofs).  Theorems about a rebuilt table, and about the
   section the saved map holds under its name, start from these. *)
From Coq Require Import String NArith List Bool Lia PeanoNat.
From RC Require Import lib.Result lib.Lists lib.Bytes model.Layout model.Str model.StrEditor model.Alloc model.ChkIo
  model.TrigTable model.RichCodec model.RichIo proofs.Alloc_proofs proofs.C09_proofs proofs.Keyed proofs.Save_shape
  gen.GenConsts.
Import ListNotations.
Local Open Scope list_scope.
Local Open Scope N_scope.

Definition by_idx (ls : list rloc) : list (N * rloc) :=
  flat_map (fun l => match l_idx l with Some i => [(i, l)] | None => [] end) ls.

Lemma by_idx_keyed ls : by_idx ls = keyed l_idx ls.
Proof. reflexivity. Qed.

(* the table of the map's one MRGN section, then the placed locations: each on a free slot, no slot twice, on its own index
   if it carries one *)
Lemma rebuild_mrgn_inv r mr :
  rebuild_mrgn r = Ok mr ->
  exists ls (placed : list (rloc * N)),
    filter (named "MRGN") r = [RMrgn ls] /\
    mr = (ls ++ map (fun p => set_idx (fst p) (snd p)) placed,
          map (fun l => (l, match l_idx l with Some i => i | None => 0 end)) ls ++
          flat_map (fun p => [(set_idx (fst p) (snd p), snd p); (fst p, snd p)]) placed) /\
    (forall l, In l ls -> l_idx l <> None) /\
    NoDup (map snd placed) /\
    (forall j, In j (map snd placed) -> ~ In j (map fst (keyed l_idx ls))) /\
    (forall q j k, In (q, j) placed -> l_idx q = Some k -> k = j).
Proof.
  unfold rebuild_mrgn. intros H. inv_bind H as x Hx H. apply only_inv in Hx.
  destruct x as [ls| | | | | | | |]; try discriminate H. exists ls.
  destruct (existsb _ ls) eqn:Enone; [discriminate|].
  match type of H with bind (add_locations ?ex (map ?req ?order)) _ = _ =>
    destruct (add_locations ex (map req order)) as [outs|e] eqn:Ea; [|discriminate]; exists (placed_of order outs) end.
  cbn [bind] in H. apply Ok_inj in H as <-.
  destruct (add_locations_sound _ _ _ Ea) as (Hfits & Hnd & Hfree & _).
  (* the requests were handed over indexed first: the editor's own sort leaves them where they are *)
  rewrite map_app, carried_first_sorted, <- map_app in Hfits.
  2: { intros x Hx'. apply in_map_iff in Hx' as (l & <- & Hl). apply filter_In in Hl as [_ Hl].
       destruct (l_idx l); [reflexivity | discriminate]. }
  2: { intros x Hx'. apply in_map_iff in Hx' as (l & <- & Hl). apply filter_In in Hl as [_ Hl].
       destruct (l_idx l); [discriminate | reflexivity]. }
  split; [exact Hx|]. split; [reflexivity|]. split; [|split; [|split]].
  - intros l Hl E. apply Bool.not_true_iff_false in Enone. apply Enone, existsb_exists. exists l. rewrite E. auto.
  - apply placed_of_nodup, Hnd.
  - intros j Hj. rewrite keyed_keys. apply Hfree. eapply placed_of_ids, Hj.
  - intros q j k Hq Hk. apply placed_of_in in Hq.
    pose proof (Forall2_combine_in _ _ _ _ _ (Forall2_map_l_inv _ _ _ _ Hfits) Hq) as Hfit. cbv beta in Hfit.
    rewrite Hk in Hfit. symmetry. exact Hfit.
Qed.

Theorem existing_location_slots_are_kept r ls mr :
  filter (named "MRGN") r = [RMrgn ls] -> rebuild_mrgn r = Ok mr ->
  exists new, fst mr = ls ++ new /\
    forall i, In i (map fst (by_idx ls)) -> assocN_last i (by_idx (fst mr)) = assocN_last i (by_idx ls).
Proof.
  intros Hf H. destruct (rebuild_mrgn_inv _ _ H) as (ls' & placed & Hf' & -> & _ & _ & Hfree & _).
  rewrite Hf in Hf'. injection Hf' as <-. cbn [fst].
  eexists. split; [reflexivity|]. intros i Hi.
  rewrite !by_idx_keyed, (keyed_placed l_idx set_idx) by reflexivity. apply assocN_last_app_absent. rewrite map_map. cbn [fst].
  intros Hc. exact (Hfree i Hc Hi).
Qed.

(* likewise; no UPRP section counts as an empty table *)
Lemma rebuild_uprp_inv r up :
  rebuild_uprp r = Ok up ->
  exists cs (placed : list (rcuwp * N)),
    (filter (named "UPRP") r = [RUprp cs] \/ filter (named "UPRP") r = [] /\ cs = []) /\
    up = cs ++ map (fun p => set_cidx (fst p) (snd p)) placed /\
    (forall c, In c cs -> c_idx c <> None) /\
    NoDup (map snd placed) /\
    (forall j, In j (map snd placed) -> ~ In j (map fst (keyed c_idx cs))).
Proof.
  unfold rebuild_uprp. intros H. inv_bind H as cs Hcs H. exists cs.
  destruct (existsb _ cs) eqn:Enone; [discriminate|].
  match type of H with bind (add_cuwp_slots ?ex (map ?req ?order)) _ = _ =>
    destruct (add_cuwp_slots ex (map req order)) as [outs|e] eqn:Ea; [|discriminate]; exists (placed_of order outs) end.
  cbn [bind] in H. apply Ok_inj in H as <-.
  destruct (add_cuwp_slots_sound _ _ _ Ea) as (_ & Hnd & Hfree & _).
  split; [|split; [|split; [|split]]].
  - destruct (filter (named "UPRP") r) as [|x [|x' t]]; [|destruct x|destruct x]; try discriminate Hcs.
    + apply Ok_inj in Hcs as <-. right. split; reflexivity.
    + apply Ok_inj in Hcs as <-. left. reflexivity.
  - (* unlike rebuild_mrgn, the model renumbers the placed sets inside the flat_map over the outcomes *)
    rewrite (placed_of_map set_cidx). reflexivity.
  - intros c Hc E. apply Bool.not_true_iff_false in Enone. apply Enone, existsb_exists. exists c. rewrite E. auto.
  - apply placed_of_nodup, Hnd.
  - intros j Hj. rewrite keyed_keys. apply Hfree. eapply placed_of_ids, Hj.
Qed.

Corollary rebuild_uprp_inv_at r cs up :
  filter (named "UPRP") r = [RUprp cs] -> rebuild_uprp r = Ok up ->
  exists placed : list (rcuwp * N),
    up = cs ++ map (fun p => set_cidx (fst p) (snd p)) placed /\
    (forall c, In c cs -> c_idx c <> None) /\
    NoDup (map snd placed) /\
    (forall j, In j (map snd placed) -> ~ In j (map fst (keyed c_idx cs))).
Proof.
  intros Hf H. destruct (rebuild_uprp_inv _ _ H) as (cs' & placed & Hsec & Hrest). exists placed.
  destruct Hsec as [E|[E _]]; rewrite Hf in E; [|discriminate E]. injection E as <-. exact Hrest.
Qed.

(* the switches a save numbers: those the triggers use, then the named ones of the map's switch table (the default table
   unless the map has exactly one SWNM section), one per dictionary key *)
Definition numbered_switches (r : list rsection) : list rswitch :=
  let swnm := match filter (named "SWNM") r with [RSwnm ss] => ss | _ => default_switches end in
  dedupe rswitch_key_eqb
    (dedupe rswitch_key_eqb (flat_map section_switches r) [] ++ filter (fun s => negb (rstr_empty (s_name s))) swnm) [].

(* slot i of the rebuilt switch table (RichSwnmRebuilder): the last NAMED switch assigned to i; failing that the last
   switch assigned to i; failing that the unnamed switch i *)
Definition swnm_slot (assigned : list (rswitch * N)) (i : N) : rswitch :=
  let by_slot := map (fun p => (snd p, fst p)) assigned in
  let renumbered s := {| s_name := s_name s; s_idx := Some i; s_oid := s_oid s |} in
  match assocN_last i (filter (fun p => negb (rstr_empty (s_name (snd p)))) by_slot) with
  | Some s => renumbered s
  | None => match assocN_last i by_slot with
            | Some s => renumbered s
            | None => {| s_name := RNull; s_idx := Some i; s_oid := 0 |}
            end
  end.

(* one that carries a number gets that number; the table is filled from the numbers given *)
Lemma rebuild_swnm_inv r sw :
  RichIo.rebuild_swnm r = Ok sw ->
  exists outs,
    Forall2 (fun x o => forall k, s_idx x = Some k -> o = Placed k) (numbered_switches r) outs /\
    sw = (map (swnm_slot (placed_of (numbered_switches r) outs)) (map N.of_nat (seq 0 (N.to_nat MAX_SWITCHES))),
          placed_of (numbered_switches r) outs).
Proof.
  unfold RichIo.rebuild_swnm. intros H. inv_bind H as outs Ho Hk. exists outs. split.
  - apply C09_proofs.rebuild_swnm_inv in Ho as [_ Ho].
    eapply Forall2_impl_in; [|exact (Forall2_map_l_inv _ _ _ _ (engine_carry_always_placed _ _ _ _ Ho))]. cbv beta.
    intros x o _ Hc k E. apply Hc. rewrite E. reflexivity.
  - (* Ok_inj: inversion on Hk would normalise the 256-slot table on its left *)
    apply Ok_inj in Hk. symmetry. exact Hk.
Qed.

Lemma dedupe_acc_in {A} (eqb : A -> A -> bool) : forall l acc a, In a acc -> In a (dedupe eqb l acc).
Proof.
  induction l as [|h l IH]; intros acc a H; simpl; [rewrite <- in_rev; exact H|].
  destruct (existsb (eqb h) acc); apply IH; [exact H | right; exact H].
Qed.

(* of a class closed under the equality, first-occurrence de-duplication keeps a member whenever the input holds one *)
Lemma dedupe_repr {A} (eqb : A -> A -> bool) (P : A -> Prop) : (forall x y, P x -> eqb x y = true -> P y) ->
  forall l acc x, In x l -> P x -> exists y, In y (dedupe eqb l acc) /\ P y.
Proof.
  intros Hcl. induction l as [|h l IH]; intros acc x H Hx; [destruct H|]. simpl.
  destruct H as [->|H]; [|destruct (existsb (eqb h) acc); eapply IH; eauto].
  destruct (existsb (eqb x) acc) eqn:E.
  - apply existsb_exists in E as (a & Ha & Hea). exists a. split; [apply dedupe_acc_in; exact Ha | eapply Hcl; eauto].
  - exists x. split; [apply dedupe_acc_in; left; reflexivity | exact Hx].
Qed.

(* a switch the triggers use survives both de-duplications up to its dictionary key *)
Lemma used_switch_is_numbered (P : rswitch -> Prop) r s :
  (forall x y, P x -> rswitch_key_eqb x y = true -> P y) ->
  In s (flat_map section_switches r) -> P s -> exists a, In a (numbered_switches r) /\ P a.
Proof.
  intros Hcl Hin Ps. destruct (dedupe_repr _ P Hcl _ [] s Hin Ps) as (u & Hu & Pu).
  apply (dedupe_repr _ P Hcl _ [] u); [apply in_or_app; left; exact Hu | exact Pu].
Qed.

Theorem saved_mrgn wd r b d' :
  rebuilds r b -> mapM (save_sec wd b) (r ++ missing r) = Ok d' ->
  exists v, mrgn_encode (rb_L b) (fst (rb_mr b)) = Ok v /\ tabs_named "MRGN" d' = [v].
Proof.
  intros Hb Hm. destruct (rebuild_mrgn_inv _ _ (rs_mrgn Hb)) as (ls & _ & Hx & _).
  apply (saved_one_tab wd r b d' "MRGN" (RMrgn ls)); [exact Hm | | reflexivity].
  rewrite Hx, missing_named_other by discriminate. reflexivity.
Qed.

(* rebuild_uprp has already refused a map with two UPRP sections, or with something else under that name *)
Theorem saved_uprp wd r b d' :
  rebuilds r b -> mapM (save_sec wd b) (r ++ missing r) = Ok d' ->
  exists v, uprp_encode (rb_up b) = Ok v /\ tabs_named "UPRP" d' = [v].
Proof.
  intros Hb Hm. destruct (rebuild_uprp_inv _ _ (rs_uprp Hb)) as (cs & _ & Hsec & _).
  destruct (in_place_or_appended "UPRP" r (fun s => match s with RUprp _ => true | _ => false end) (RUprp []))
    as (s & His & Hf); [apply missing_named_uprp | reflexivity | | |].
  - intros s His Hin. apply existsb_exists. exists s. destruct s; try discriminate. auto.
  - destruct Hsec as [E|[E _]]; [right; exists (RUprp cs); split; [reflexivity | exact E] | left; exact E].
  - destruct s; try discriminate. apply (saved_one_tab wd r b d' "UPRP" _ _ Hm Hf). reflexivity.
Qed.

(* rebuild_swnm falls back on the default table instead of refusing: hence the two premises *)
Theorem saved_swnm wd r b d' :
  mapM (save_sec wd b) (r ++ missing r) = Ok d' ->
  (forall s, In s r -> named "SWNM" s = true -> exists ss, s = RSwnm ss) -> (length (filter (named "SWNM") r) <= 1)%nat ->
  exists v, swnm_encode (rb_L b) (fst (rb_sw b)) = Ok v /\ tabs_named "SWNM" d' = [v].
Proof.
  intros Hm Honly Hone.
  destruct (in_place_or_appended "SWNM" r (fun s => match s with RSwnm _ => true | _ => false end) (RSwnm []))
    as (s & His & Hf); [apply missing_named_swnm | reflexivity | | |].
  - intros s His Hin. apply existsb_exists. exists s. destruct s; try discriminate. auto.
  - destruct (filter (named "SWNM") r) as [|x [|x' t]] eqn:Ef; [left; reflexivity | | simpl in Hone; lia].
    assert (In x r /\ named "SWNM" x = true) as [Hin Hn] by (apply filter_In; rewrite Ef; left; reflexivity).
    destruct (Honly x Hin Hn) as [ss ->]. right. exists (RSwnm ss). split; reflexivity.
  - destruct s; try discriminate. apply (saved_one_tab wd r b d' "SWNM" _ _ Hm Hf). reflexivity.
Qed.
