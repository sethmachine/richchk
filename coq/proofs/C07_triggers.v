(* C07, pre-existing triggers are written as the very records the unedited save writes (records, not yet bytes: each is
   then encoded on its own into 2400 bytes, C11).  Two facts, put together through save: a trigger's record depends on the
   encode context only through the numbers the context gives to the trigger's own strings, locations, switches and
   unit-property sets; and the contexts of two saves (the unedited map, and the map after ANY edits that keep the location and
   unit-property sections) give the same number to every object that sits in a slot of the loaded map. *)
From Coq Require Import String NArith List Bool Lia PeanoNat.
From RC Require Import lib.Result lib.Lists lib.Bytes model.Layout model.Str model.StrEditor model.Alloc model.ChkIo
  model.Flags model.TrigTable model.RichCodec model.RichIo proofs.Alloc_proofs proofs.C08_proofs proofs.Save_strings
  proofs.Save_shape proofs.Keyed proofs.LastHit proofs.C07_slots proofs.C05_proofs proofs.Entries proofs.C07_untouched gen.GenTrig
  gen.GenFlags gen.GenConsts.
Import ListNotations.
Local Open Scope string_scope.
Local Open Scope list_scope.
Local Open Scope N_scope.

Definition arg_agrees (cx0 cx' : context) (x : rarg) : Prop := forall c, enc_arg cx' c x = enc_arg cx0 c x.

Definition entry_agrees (cx0 cx' : context) (e : rentry) : Prop :=
  match e with
  | ERaw _ => True
  | ERich _ args _ => (forall a x, In (a, x) args -> arg_agrees cx0 cx' x) /\ wav_duration cx' args = wav_duration cx0 args
  end.

Lemma encode_entry_of_agrees cx0 cx' table flagc fields e :
  entry_agrees cx0 cx' e -> encode_entry_of cx' table flagc fields e = encode_entry_of cx0 table flagc fields e.
Proof.
  destruct e as [r|key args fl]; [reflexivity|]. intros [Hargs Hwd]. cbn [encode_entry_of].
  destruct (find_entry key table) as [te|]; [|reflexivity].
  assert (encode_entry rarg (enc_arg cx') (wav_duration cx') te args = encode_entry rarg (enc_arg cx0) (wav_duration cx0) te args) as ->;
    [|reflexivity].
  rewrite !encode_entry_rows. apply mapM_ext_in. intros [f src] _. cbn [fst snd].
  destruct src as [| | |c a]; cbn [src_val]; try reflexivity.
  - rewrite Hwd. reflexivity.
  - destruct (arg_get rarg a args) as [x|] eqn:Eg; [|reflexivity]. cbn [bind].
    rewrite (Hargs a x (arg_get_in _ _ _ Eg) c). reflexivity.
Qed.

Theorem trigger_encode_agrees cx0 cx' t :
  (forall e, In e (t_conds t) -> entry_agrees cx0 cx' e) -> (forall e, In e (t_acts t) -> entry_agrees cx0 cx' e) ->
  trigger_encode cx' t = trigger_encode cx0 t.
Proof.
  intros Hc Ha. unfold trigger_encode.
  rewrite (mapM_ext_in _ (encode_entry_of cx0 gen_condition_table condition_flags_codec condition_record_fields) (t_conds t))
    by (intros e He; apply encode_entry_of_agrees; apply Hc; exact He).
  rewrite (mapM_ext_in _ (encode_entry_of cx0 gen_action_table action_flags_codec action_record_fields) (t_acts t))
    by (intros e He; apply encode_entry_of_agrees; apply Ha; exact He).
  reflexivity.
Qed.

Lemma rloc_eqb_indexed l k i : l_idx l = Some i -> rloc_eqb l k = true -> l_idx k = Some i.
Proof.
  unfold rloc_eqb, rloc_fields_eqb. intros ->. destruct (l_idx k) as [j|]; [|discriminate]. cbn [optN_eqb]. intros H.
  apply andb_true_iff in H as [H _]. apply andb_true_iff in H as [_ H]. apply N.eqb_eq in H. subst. reflexivity.
Qed.

(* for a location carrying an index that was occupied in the loaded table, the number a save hands to the encoders is found
   among the loaded table's own entries, whatever else had to be placed *)
Theorem old_location_number_is_stable r ls mr l i :
  filter (named "MRGN") r = [RMrgn ls] -> rebuild_mrgn r = Ok mr ->
  l_idx l = Some i -> In i (map fst (by_idx ls)) ->
  find_loc_id l (snd mr) None =
  find_loc_id l (map (fun l => (l, match l_idx l with Some i => i | None => 0 end)) ls) None.
Proof.
  intros Hf H Hli Hi. destruct (rebuild_mrgn_inv _ _ H) as (ls' & placed & Hf' & -> & _ & _ & Hfree & Hcarry).
  rewrite Hf in Hf'. injection Hf' as <-. cbn [snd].
  rewrite !find_loc_id_fold, last_hit_app. apply last_hit_none.
  (* an entry for a placed location (q, j) that l is equal to would carry l's index i: but j is a free slot, i an occupied one *)
  intros [k n] Hin. cbn [fst]. apply not_true_is_false. intros He. apply (rloc_eqb_indexed l k i Hli) in He.
  apply in_flat_map in Hin as ([q j] & Hq & Hin). cbn [fst snd] in Hin.
  apply (Hfree j (in_map snd _ _ Hq)). replace j with i; [exact Hi|].
  destruct Hin as [E|[E|[]]]; inversion E; subst k n.
  - cbn [set_idx l_idx] in He. congruence.
  - exact (Hcarry q j i Hq He).
Qed.

Definition cby_idx (cs : list rcuwp) : list (N * rcuwp) :=
  flat_map (fun c => match c_idx c with Some i => [(i, c)] | None => [] end) cs.

Lemma cby_idx_keyed cs : cby_idx cs = keyed c_idx cs.
Proof. reflexivity. Qed.

Lemma bools_eqb_refl l : bools_eqb l l = true.
Proof. induction l as [|x l IH]; simpl; [reflexivity | rewrite eqb_reflx, IH; reflexivity]. Qed.

Lemma rcuwp_eqb_refl c : rcuwp_eqb c c = true.
Proof. unfold rcuwp_eqb. rewrite !N.eqb_refl, !bools_eqb_refl, eqb_reflx. reflexivity. Qed.

Theorem old_cuwp_number_is_stable r cs up cx c c' i :
  filter (named "UPRP") r = [RUprp cs] -> rebuild_uprp r = Ok up -> cx_cuwps cx = up ->
  c_idx c = Some i -> assocN_last i (cby_idx cs) = Some c' -> rcuwp_eqb c c' = true ->
  id_by_cuwp cx c = Ok i.
Proof.
  intros Hf H Hcx Hci Hslot Heq. destruct (rebuild_uprp_inv_at _ _ _ Hf H) as (placed & E & _ & _ & Hfree).
  rewrite cby_idx_keyed in Hslot. apply (id_by_cuwp_carried cx c i c' Hci); [|exact Heq].
  rewrite cuwp_by_id_keyed, Hcx, E, (keyed_placed c_idx set_cidx) by reflexivity.
  rewrite assocN_last_app_absent; [exact Hslot|].
  rewrite map_map. cbn [fst]. intros Hc. apply (Hfree i Hc).
  apply assocN_last_in in Hslot. exact (in_map fst _ _ Hslot).
Qed.

Definition sw_norm (s : rswitch) : list N := match s_name s with RNull => [] | RText x => x end.

Lemma named_iff_norm s : rstr_empty (s_name s) = false <-> sw_norm s <> [].
Proof. unfold sw_norm. destruct (s_name s) as [|[|x0 x]]; cbn [rstr_empty]; split; congruence. Qed.

Lemma list_N_eqb_nil_r x : list_N_eqb x [] = match x with [] => true | _ => false end.
Proof. destruct x; reflexivity. Qed.

(* the dictionary key of a numbered switch: the number, and the name up to null = empty *)
Lemma key_eqb_indexed x y k : s_idx x = Some k ->
  rswitch_key_eqb x y = true <-> s_idx y = Some k /\ sw_norm x = sw_norm y.
Proof.
  intros Hx. unfold rswitch_key_eqb, sw_norm. rewrite Hx.
  destruct (s_idx y) as [j|]; [|split; [discriminate | intros [E _]; discriminate]].
  rewrite andb_true_iff, N.eqb_eq.
  (* the test on the names reads null as the empty text, as sw_norm does: null against a text asks whether the text is
     empty, two texts are compared.  "Is it empty" is a match on the text (destruct b, destruct a); the compiled definition
     has one on the first text in the last case too. *)
  destruct (s_name x) as [|a], (s_name y) as [|b].
  - split; intros [A B]; split; congruence.
  - destruct b; split; intros [A B]; split; congruence.
  - destruct a; split; intros [A B]; split; congruence.
  - destruct a; rewrite list_N_eqb_eq; split; intros [A B]; split; congruence.
Qed.

(* without a number the names themselves are compared, as long as one of them is not empty *)
Lemma key_eqb_unindexed x y :
  s_idx x = None -> rstr_empty (s_name x) = false -> rswitch_key_eqb x y = true -> s_name y = s_name x.
Proof.
  intros Hx Hn. unfold rswitch_key_eqb. rewrite Hx. destruct (s_idx y); [discriminate|]. rewrite Hn. cbn [andb].
  rewrite orb_false_r. destruct (s_name x) as [|a]; [discriminate Hn|]. destruct (s_name y) as [|b]; [discriminate|].
  cbn [rstr_eqb]. intros H. apply list_N_eqb_eq in H as ->. reflexivity.
Qed.

Theorem used_switch_number_is_stable r sw s k :
  RichIo.rebuild_swnm r = Ok sw -> s_idx s = Some k -> In s (flat_map section_switches r) ->
  find_switch_id s (snd sw) None = Some k.
Proof.
  intros H Hs Hin. destruct (rebuild_swnm_inv r sw H) as (outs & F & ->). cbn [snd].
  (* the switches numbered k and named as s are closed under the key equality: one of them survives both de-duplications,
     and it is placed on k *)
  pose (P := fun y => s_idx y = Some k /\ sw_norm s = sw_norm y).
  assert (forall x y, P x -> rswitch_key_eqb x y = true -> P y) as Hcl.
  { intros x y [Hx Hn] Hxy. apply (key_eqb_indexed x y k Hx) in Hxy as [Hy Hn']. split; congruence. }
  destruct (used_switch_is_numbered P r s Hcl Hin (conj Hs eq_refl)) as (a & Ha & Pa).
  rewrite find_switch_id_fold. apply last_hit_const; [|right; split; [reflexivity|]].
  - intros [b i] Hbi Hm. cbn [fst snd] in *. apply placed_of_in in Hbi. apply (key_eqb_indexed s b k Hs) in Hm as [Hb _].
    pose proof (Forall2_combine_in _ _ _ _ _ F Hbi k Hb) as E. inversion E. reflexivity.
  - destruct (Forall2_in_l _ _ _ a F Ha) as (o & Hcomb & Hfit). rewrite (Hfit k (proj1 Pa)) in Hcomb.
    exists (a, k). split; [apply placed_of_in; exact Hcomb | apply (key_eqb_indexed s a k Hs); exact Pa].
Qed.

(* what is asked of an argument of a pre-existing trigger: it denotes something that sits in the loaded map's tables *)
Definition arg_ok (T : list (list N)) (ls : list rloc) (cs : list rcuwp) (r0 r' : list rsection) (x : rarg) : Prop :=
  match x with
  | AStr s => known {| sl_by_id := T |} s
  | AStrV p => In p T
  | ALoc l => exists i, l_idx l = Some i /\ In i (map fst (by_idx ls))
  | ACuwp c => exists i c', c_idx c = Some i /\ assocN_last i (cby_idx cs) = Some c' /\ rcuwp_eqb c c' = true
  | ASwitch s => exists k, s_idx s = Some k /\ In s (flat_map section_switches r0) /\ In s (flat_map section_switches r')
  | _ => True
  end.

Definition entry_ok T ls cs r0 r' (e : rentry) : Prop :=
  match e with ERaw _ => True | ERich _ args _ => forall a x, In (a, x) args -> arg_ok T ls cs r0 r' x end.

Definition trigger_ok T ls cs r0 r' (t : rtrigger) : Prop :=
  (forall e, In e (t_conds t) -> entry_ok T ls cs r0 r' e) /\ (forall e, In e (t_acts t) -> entry_ok T ls cs r0 r' e).

Definition save_context (wd : list (list N * N)) (L : str_lookup) (mr : list rloc * list (rloc * N))
           (sw : list rswitch * list (rswitch * N)) (up : list rcuwp) : context :=
  {| cx_str := L; cx_locs := fst mr; cx_loc_ids := snd mr; cx_switch_by_id := []; cx_switch_ids := snd sw;
     cx_cuwps := up; cx_wav_dur := wd |}.

Lemma save_cx_context wd b : save_cx wd b = save_context wd (rb_L b) (rb_mr b) (rb_sw b) (rb_up b).
Proof. reflexivity. Qed.

(* two saves over one base table T: each works with a growth T ++ U of its lookup (HL0, HL': from
   C07_untouched.save_over_table) *)
Section TwoSaves.
  Variables (r0 r' : list rsection) (wd : list (list N * N)) (T : list (list N)) (ls : list rloc) (cs : list rcuwp).
  Variables (U0 U' : list (list N)) (b0 b' : rebuilt).

  Hypothesis HU0 : forall s, In s U0 -> ~ In s T.
  Hypothesis HU' : forall s, In s U' -> ~ In s T.
  Hypothesis HL0 : rb_L b0 = {| sl_by_id := T ++ U0 |}.
  Hypothesis HL' : rb_L b' = {| sl_by_id := T ++ U' |}.
  Hypothesis Hm0 : filter (named "MRGN") r0 = [RMrgn ls].
  Hypothesis Hm' : filter (named "MRGN") r' = [RMrgn ls].
  Hypothesis Hu0 : filter (named "UPRP") r0 = [RUprp cs].
  Hypothesis Hu' : filter (named "UPRP") r' = [RUprp cs].
  Hypothesis R0 : rebuilds r0 b0.
  Hypothesis R' : rebuilds r' b'.

  Lemma old_location_ids_agree l i :
    l_idx l = Some i -> In i (map fst (by_idx ls)) -> id_by_loc (save_cx wd b') l = id_by_loc (save_cx wd b0) l.
  Proof.
    intros Hi Hin. unfold id_by_loc. cbn [save_cx cx_loc_ids].
    rewrite (old_location_number_is_stable r' ls _ l i Hm' (rs_mrgn R') Hi Hin),
            (old_location_number_is_stable r0 ls _ l i Hm0 (rs_mrgn R0) Hi Hin).
    reflexivity.
  Qed.

  Lemma arg_ok_agrees x : arg_ok T ls cs r0 r' x -> arg_agrees (save_cx wd b0) (save_cx wd b') x.
  Proof.
    intros Hok c. destruct x as [n|id|l|s|p|cw|s|nm|]; cbn [arg_ok] in Hok.
    (* by kind of argument: under a codec that is not its own an argument is refused whatever the context; numbers,
       enumeration members and AI scripts are encoded without the context *)
    - destruct c; reflexivity.
    - destruct c; reflexivity.
    - (* a location: CLoc, CLocThrow *)
      destruct Hok as (i & Hi & Hin).
      destruct c; try reflexivity; cbn [enc_arg]; rewrite (old_location_ids_agree l i Hi Hin); reflexivity.
    - (* a string: CStr *)
      destruct c; try reflexivity. cbn [enc_arg save_cx cx_str]. rewrite HL0, HL'.
      apply (growths_agree T U0 U' HU0 HU'). exact Hok.
    - (* a text value: CStrValue *)
      destruct c; try reflexivity. cbn [enc_arg save_cx cx_str]. rewrite HL0, HL'.
      apply (growths_agree T U0 U' HU0 HU' (RText p)). exact Hok.
    - (* a unit-property set: CCuwp *)
      destruct c; try reflexivity. cbn [enc_arg]. destruct Hok as (i & c' & Hi & Hslot & Heq).
      rewrite (old_cuwp_number_is_stable r' cs _ (save_cx wd b') cw c' i Hu' (rs_uprp R') eq_refl Hi Hslot Heq),
              (old_cuwp_number_is_stable r0 cs _ (save_cx wd b0) cw c' i Hu0 (rs_uprp R0) eq_refl Hi Hslot Heq). reflexivity.
    - (* a switch: CSwitch *)
      destruct c; try reflexivity. cbn [enc_arg]. destruct Hok as (k & Hk & Hin0 & Hin').
      unfold id_by_switch. cbn [save_cx cx_switch_ids].
      rewrite (used_switch_number_is_stable r' _ s k (rs_swnm R') Hk Hin'), (used_switch_number_is_stable r0 _ s k (rs_swnm R0) Hk Hin0).
      reflexivity.
    - destruct c; reflexivity.
    - destruct c; reflexivity.
  Qed.

  Lemma entry_ok_agrees e : entry_ok T ls cs r0 r' e -> entry_agrees (save_cx wd b0) (save_cx wd b') e.
  Proof.
    destruct e as [r|key args fl]; [intros _; exact I|]. intros Hok. split; [|reflexivity].
    intros a x Hin. apply arg_ok_agrees. exact (Hok a x Hin).
  Qed.

  Theorem preexisting_trigger_encodes_identically t :
    trigger_ok T ls cs r0 r' t -> trigger_encode (save_cx wd b') t = trigger_encode (save_cx wd b0) t.
  Proof.
    intros [Hc Ha]. apply trigger_encode_agrees; intros e He; apply entry_ok_agrees; [apply Hc | apply Ha]; exact He.
  Qed.

  (* the trigger section that holds the old triggers followed by any new ones starts with the old records *)
  Theorem preexisting_triggers_keep_their_records ts new v0 v' :
    Forall (trigger_ok T ls cs r0 r') ts ->
    trig_encode (save_cx wd b0) ts = Ok v0 -> trig_encode (save_cx wd b') (ts ++ new) = Ok v' ->
    forall k tv, nth_error (vlist "_triggers" v0) k = Some tv -> nth_error (vlist "_triggers" v') k = Some tv.
  Proof.
    intros Hok H0 H' k tv Hn. apply trig_encode_inv in H0, H'.
    destruct (mapM_app _ _ _ _ H') as (r1 & r2 & H1 & _ & ->).
    rewrite (mapM_ext_in _ (trigger_encode (save_cx wd b0)) ts), H0 in H1.
    - apply Ok_inj in H1. subst r1. rewrite nth_error_app1; [exact Hn | apply nth_error_Some; congruence].
    - intros t Ht. apply preexisting_trigger_encodes_identically. rewrite Forall_forall in Hok. exact (Hok t Ht).
  Qed.
End TwoSaves.

Theorem preexisting_triggers_survive_edits_bytewise r0 r' wd d0 d' m bin T ls cs i ts new :
  filter (named "STR ") r0 = [RDecodedStr "STR " 2 m] -> filter (named "STR ") r' = [RDecodedStr "STR " 2 m] ->
  wf_table 2 m bin -> build_lookup 2 m = Ok T ->
  Forall clean (flat_map section_strings r0) -> Forall clean (flat_map section_strings r') ->
  filter (named "MRGN") r0 = [RMrgn ls] -> filter (named "MRGN") r' = [RMrgn ls] ->
  filter (named "UPRP") r0 = [RUprp cs] -> filter (named "UPRP") r' = [RUprp cs] ->
  nth_error r0 i = Some (RTrig ts) -> nth_error r' i = Some (RTrig (ts ++ new)) ->
  Forall (trigger_ok T ls cs r0 r') ts ->
  save wd r0 = Ok d0 -> save wd r' = Ok d' ->
  exists v0 v', nth_error d0 i = Some (DTab "TRIG" v0) /\ nth_error d' i = Some (DTab "TRIG" v') /\
    forall k tv, nth_error (vlist "_triggers" v0) k = Some tv -> nth_error (vlist "_triggers" v') k = Some tv.
Proof.
  intros Hs0 Hs' Hwf HT Hc0 Hc' Hm0 Hm' Hu0 Hu' Hn0 Hn' Hok S0 S'.
  destruct (save_over_table _ _ _ _ _ _ Hs0 Hwf HT Hc0 S0) as (b0 & U0 & R0 & HL0 & HU0 & M0).
  destruct (save_over_table _ _ _ _ _ _ Hs' Hwf HT Hc' S') as (b' & U' & R' & HL' & HU' & M').
  destruct (save_trig_nth _ _ _ _ _ _ M0 Hn0) as (v0 & Hv0 & Hny0).
  destruct (save_trig_nth _ _ _ _ _ _ M' Hn') as (v' & Hv' & Hny').
  exists v0, v'. split; [exact Hny0|]. split; [exact Hny'|].
  eapply (preexisting_triggers_keep_their_records r0 r' wd T ls cs U0 U' b0 b'); eassumption.
Qed.
