(* C07: a section the edits give no reason to change is byte-identical to what saving the unedited map produces.  Proved for the
   sections whose encoding consults the map only through the string table (WAV, UNIS, UNIx): the base map r0 and ANY edited map
   r' that still holds the same decoded STR section and the same rich section at position i are saved (each with its own new
   strings, locations, switches, unit-property sets, with or without sound metadata); both outputs hold the same section at
   position i, because both string tables are growths of the base table, and a growth never renumbers a text the base table
   knew (Save_strings). *)
From Coq Require Import String NArith List Bool Lia PeanoNat.
From RC Require Import lib.Result lib.Bytes model.Layout model.Str model.StrEditor model.ChkIo model.TrigTable
  model.RichCodec model.RichIo proofs.C08_proofs proofs.Save_strings proofs.Save_shape proofs.RichTables.
Import ListNotations.
Local Open Scope string_scope.
Local Open Scope list_scope.

(* every text the section mentions had an id in the base table *)
Definition names_known (T : list (list N)) (s : rsection) : Prop :=
  match s with
  | RWav ws => forall w, In w ws -> known {| sl_by_id := T |} (fst w)
  | RUnis _ _ us => forall u, In u us -> known {| sl_by_id := T |} (u_name u)
  | _ => False
  end.

Lemma only_singleton {A} (l : list A) x : l = [x] -> only l = Ok x.
Proof. intros ->. reflexivity. Qed.

(* a save of a map over the base table: the string lookup it works with is a growth of the base table's lookup *)
Lemma save_over_table wd r d m bin T :
  filter (named "STR ") r = [RDecodedStr "STR " 2 m] ->
  wf_table 2 m bin -> build_lookup 2 m = Ok T -> Forall clean (flat_map section_strings r) ->
  save wd r = Ok d ->
  exists b U, rebuilds r b /\ rb_L b = {| sl_by_id := T ++ U |} /\ (forall s, In s U -> ~ In s T) /\
    mapM (save_sec wd b) (r ++ missing r) = Ok d.
Proof.
  intros Hf Hwf HT Hc Hs. destruct (save_inv _ _ _ Hs) as (b & Hb & Hm). exists b.
  pose proof (rs_str Hb) as Hr. rewrite (rebuild_str_eq _ _ _ _ Hf) in Hr.
  pose proof (build_str_lookup_inv _ _ _ (rs_lookup Hb)) as HT'.
  destruct (add_strings_lookup 2 _ m bin _ T _ Hwf Hc Hr HT HT') as (U & E & _ & HU & _).
  exists U. split; [exact Hb|]. split; [|split; [|exact Hm]].
  - destruct (rb_L b) as [T']. cbn [sl_by_id] in E. rewrite E. reflexivity.
  - intros s Hs'. apply (HU s Hs').
Qed.

Theorem untouched_string_section_is_identical r0 r' wd0 wd' d0 d' m bin T i s :
  filter (named "STR ") r0 = [RDecodedStr "STR " 2 m] ->
  filter (named "STR ") r' = [RDecodedStr "STR " 2 m] ->
  wf_table 2 m bin -> build_lookup 2 m = Ok T ->
  Forall clean (flat_map section_strings r0) -> Forall clean (flat_map section_strings r') ->
  nth_error r0 i = Some s -> nth_error r' i = Some s -> names_known T s ->
  save wd0 r0 = Ok d0 -> save wd' r' = Ok d' ->
  nth_error d' i = nth_error d0 i.
Proof.
  intros Hf0 Hf' Hwf HT Hc0 Hc' Hn0 Hn' Hk Hs0 Hs'.
  destruct (save_over_table _ _ _ _ _ _ Hf0 Hwf HT Hc0 Hs0) as (b0 & U0 & _ & E0 & HU0 & Hm0).
  destruct (save_over_table _ _ _ _ _ _ Hf' Hwf HT Hc' Hs') as (b' & U' & _ & E' & HU' & Hm').
  pose proof (growths_agree T U0 U' HU0 HU') as Hag.
  destruct (save_nth _ _ _ _ _ _ Hm0 Hn0) as (y0 & Hy0 & ->).
  destruct (save_nth _ _ _ _ _ _ Hm' Hn') as (y' & Hy' & ->). f_equal.
  apply save_sec_inv in Hy0, Hy'.
  destruct s as [ls|ts|nw n us|cs|ss|ws|n w ms|n v|n p]; cbn [names_known] in Hk; try contradiction;
    destruct Hy0 as (v0 & -> & Hv0), Hy' as (v' & -> & Hv'); rewrite E0 in Hv0; rewrite E' in Hv'.
  - (* UNIS / UNIx *)
    rewrite (unis_encode_agree {| sl_by_id := T ++ U0 |} {| sl_by_id := T ++ U' |}) in Hv'; [congruence|].
    intros x Hx. apply in_map_iff in Hx as (u & <- & Hu). apply Hag, Hk, Hu.
  - (* WAV *)
    rewrite (wav_encode_agree {| sl_by_id := T ++ U0 |} {| sl_by_id := T ++ U' |}) in Hv'; [congruence|].
    intros x Hx. apply in_map_iff in Hx as (w & <- & Hw). apply Hag, Hk, Hw.
Qed.

(* what decode hands out satisfies the premise *)
Lemma wav_decode_names_known L v : names_known (sl_by_id L) (RWav (wav_decode L v)).
Proof.
  cbn [names_known]. intros w Hw. rewrite wav_decode_numbered in Hw. apply in_flat_map in Hw as (p & _ & Hw).
  destruct (N.eqb _ _); [destruct Hw|]. destruct Hw as [<-|[]]. simpl. destruct L. apply str_by_id_known.
Qed.

Lemma unis_decode_names_known L nw n v : names_known (sl_by_id L) (RUnis nw n (unis_decode L v)).
Proof.
  cbn [names_known]. intros u Hu. unfold unis_decode in Hu. apply filter_In in Hu as [Hu _].
  apply in_map_iff in Hu as (k & <- & _). cbn [unit_decode u_name]. destruct L. apply str_by_id_known.
Qed.
