(* C08: adding strings to a STR/STRx table — existing ids keep their text, every requested string gets an id that
   resolves to it, STR -> STRx preserves the id -> text map.  Offsets are read relative to the data region; everything is
   stated through the table's id -> text lookup, mapM (resolve bin) (ss_offsets t): the lookup of the grown table is the
   old lookup followed by the new strings, and add_strings always produces a grown table. *)
From Coq Require Import String NArith List Bool Lia PeanoNat.
From RC Require Import lib.Result lib.Bytes lib.Utf8 model.Str model.StrEditor proofs.Str_proofs.
Import ListNotations.
Local Open Scope N_scope.

Definition clean (s : list N) : Prop := Forall (fun c => 0 < c /\ c < 128) s.

Lemma clean_ascii s : clean s -> Forall (fun c => c < 128) s.
Proof. intros H. eapply Forall_impl; [|exact H]. simpl. tauto. Qed.

Lemma enc_offsets_length w offs : forall n b,
  n = N.of_nat (length offs) -> enc_offsets w n offs = Ok b -> length b = (w * length offs)%nat.
Proof.
  induction offs as [|o r IH]; intros n b Hn H; simpl in *.
  - subst n. simpl in H. inversion H. simpl. lia.
  - destruct (n =? 0) eqn:E; [apply N.eqb_eq in E; lia|].
    inv_bind H as a Ha Hk. inv_bind Hk as b' Hb Hk2. inversion Hk2; subst.
    apply pack_length in Ha. apply IH in Hb; [|lia]. rewrite app_length. lia.
Qed.

Definition hdr_len (w : nat) (t : str_section) : nat := (w + w * length (ss_offsets t))%nat.

Lemma str_encode_shape w t bin :
  ss_num t = N.of_nat (length (ss_offsets t)) -> Forall clean (ss_strings t) ->
  str_encode w t = Ok bin ->
  exists H, bin = H ++ join (ss_strings t) /\ length H = hdr_len w t.
Proof.
  intros Hn Hc (h & o & s & Hh & Ho & Hs & ->)%str_encode_inv.
  rewrite enc_strings_join in Hs by (exact Hc).
  apply Ok_inj in Hs as <-. exists (h ++ o). split; [rewrite app_assoc; reflexivity|].
  apply pack_length in Hh. apply enc_offsets_length in Ho; [|assumption].
  rewrite app_length. unfold hdr_len. lia.
Qed.

Lemma read_cstr_app a : forall b s, read_cstr a = Ok s -> read_cstr (a ++ b) = Ok s.
Proof.
  induction a as [|x a IH]; intros b s H; simpl in *; [discriminate|].
  destruct (128 <=? x); [discriminate|]. destruct (x =? 0); [assumption|].
  inv_bind H as t Ht Hk. inversion Hk; subst. rewrite (IH _ _ Ht). reflexivity.
Qed.

Lemma read_cstr_clean s rest : clean s -> read_cstr (s ++ 0 :: rest) = Ok s.
Proof.
  induction 1 as [|c r [Hc0 Hc1] Hr IH]; simpl; [reflexivity|].
  replace (128 <=? c) with false by (symmetry; apply N.leb_gt; assumption).
  replace (c =? 0) with false by (symmetry; apply N.eqb_neq; lia).
  rewrite IH. reflexivity.
Qed.

Lemma resolve_ok bin o s :
  resolve bin o = Ok s <-> o < N.of_nat (length bin) /\ read_cstr (skipn (N.to_nat o) bin) = Ok s.
Proof.
  unfold resolve. destruct (N.leb_spec (N.of_nat (length bin)) o) as [Hle|Hlt].
  - split; [discriminate | intros [Hlt _]; lia].
  - split; [intros H; exact (conj Hlt H) | intros [_ H]; exact H].
Qed.

Lemma resolve_skip H D j s : resolve (H ++ D) (N.of_nat (length H) + j) = Ok s <-> resolve D j = Ok s.
Proof.
  rewrite !resolve_ok, app_length, N2Nat.inj_add, Nat2N.id, skipn_app, skipn_all2 by lia.
  replace (length H + N.to_nat j - length H)%nat with (N.to_nat j) by lia. simpl.
  split; intros [Hlt Hr]; (split; [lia | exact Hr]).
Qed.

Lemma resolve_app D X j s : resolve D j = Ok s -> resolve (D ++ X) j = Ok s.
Proof.
  rewrite !resolve_ok, app_length, skipn_app. intros [Hlt Hr]. split; [lia | apply read_cstr_app; exact Hr].
Qed.

Lemma resolve_clean s rest : clean s -> resolve (s ++ 0 :: rest) 0 = Ok s.
Proof.
  intros H. apply resolve_ok. rewrite app_length. split; [simpl; lia | apply read_cstr_clean; exact H].
Qed.

(* the same data behind a header longer by d, possibly followed by more data: every offset moves by d *)
Lemma resolve_rebase H H' D X o d s :
  N.of_nat (length H) <= o -> N.of_nat (length H') = N.of_nat (length H) + d ->
  resolve (H ++ D) o = Ok s -> resolve (H' ++ D ++ X) (o + d) = Ok s.
Proof.
  intros Ho Hd. replace o with (N.of_nat (length H) + (o - N.of_nat (length H))) at 1 by lia.
  replace (o + d) with (N.of_nat (length H') + (o - N.of_nat (length H))) by lia.
  rewrite !resolve_skip. apply resolve_app.
Qed.

Definition in_data (w : nat) (t : str_section) (bin : bytes) (o : N) : Prop :=
  exists j, o = N.of_nat (hdr_len w t + j) /\ (hdr_len w t + j < length bin)%nat.

Lemma in_data_ge w t bin o : in_data w t bin o -> N.of_nat (hdr_len w t) <= o.
Proof. intros (j & -> & _). lia. Qed.

Lemma in_data_intro w t bin o s : N.of_nat (hdr_len w t) <= o -> resolve bin o = Ok s -> in_data w t bin o.
Proof. intros Ho [Hr _]%resolve_ok. exists (N.to_nat o - hdr_len w t)%nat. lia. Qed.

(* wf_off asks of an offset that it points behind the header (in_data: an id whose offset points into the header changes
   its text when the table grows) and that a string reads from it; in_data's upper bound follows from the second *)
Record wf_table (w : nat) (t : str_section) (bin : bytes) : Prop := {
  wf_num : ss_num t = N.of_nat (length (ss_offsets t));
  wf_clean : Forall clean (ss_strings t);
  wf_enc : str_encode w t = Ok bin;
  wf_off : Forall (fun o => in_data w t bin o /\ exists s, resolve bin o = Ok s) (ss_offsets t);
}.

Definition resolvable (t : str_section) (bin : bytes) (s : list N) : Prop :=
  exists i o, nth_error (ss_offsets t) i = Some o /\ resolve bin o = Ok s.

Lemma wf_mapM w t bin : wf_table w t bin -> exists T, mapM (resolve bin) (ss_offsets t) = Ok T.
Proof.
  intros Hwf. apply mapM_all_ok. eapply Forall_impl; [|exact (wf_off _ _ _ Hwf)]. simpl. tauto.
Qed.

Lemma build_lookup_inv w t T :
  build_lookup w t = Ok T -> exists bin, str_encode w t = Ok bin /\ mapM (resolve bin) (ss_offsets t) = Ok T.
Proof. unfold build_lookup. intros H. inv_bind H as bin Hbin HT. eauto. Qed.

Lemma build_lookup_wf w t bin T : wf_table w t bin -> build_lookup w t = Ok T -> mapM (resolve bin) (ss_offsets t) = Ok T.
Proof.
  intros Hwf (bin0 & Hbin & HT)%build_lookup_inv. rewrite (wf_enc _ _ _ Hwf) in Hbin. apply Ok_inj in Hbin as <-. exact HT.
Qed.

Lemma lookup_nth t bin T i o s : mapM (resolve bin) (ss_offsets t) = Ok T ->
  nth_error (ss_offsets t) i = Some o -> resolve bin o = Ok s -> nth_error T i = Some s.
Proof. intros H Hn Hr. destruct (mapM_nth _ _ _ _ _ H Hn) as (b & Hb & Hnb). congruence. Qed.

Lemma lookup_resolvable t bin T : mapM (resolve bin) (ss_offsets t) = Ok T ->
  forall s, resolvable t bin s <-> In s T.
Proof.
  intros H s. split.
  - intros (i & o & Hn & Hr). eapply nth_error_In, lookup_nth; eauto.
  - intros Hs. destruct (mapM_in _ _ _ _ H Hs) as (i & o & ? & ?). exists i, o. auto.
Qed.

Lemma list_N_eqb_eq a : forall b, list_N_eqb a b = true <-> a = b.
Proof.
  induction a as [|x a IH]; intros [|y b]; simpl; split; intros H; try discriminate; try reflexivity.
  - apply andb_true_iff in H as [H1 H2]. apply N.eqb_eq in H1. apply IH in H2. subst. reflexivity.
  - inversion H; subst. rewrite N.eqb_refl. simpl. apply IH. reflexivity.
Qed.

Lemma mem_str_in s l : mem_str s l = true <-> In s l.
Proof.
  unfold mem_str. rewrite existsb_exists. split.
  - intros (x & Hx & He). apply list_N_eqb_eq in He. subst. assumption.
  - intros H. exists s. split; [assumption | apply list_N_eqb_eq; reflexivity].
Qed.

Lemma make_unique_in req existing s : forall acc,
  In s (make_unique req existing acc) <-> In s acc \/ In s req /\ ~ In s existing.
Proof.
  induction req as [|x r IH]; intros acc; simpl.
  - rewrite <- in_rev. tauto.
  - destruct (mem_str x existing || mem_str x acc) eqn:E; rewrite IH.
    + apply orb_true_iff in E. rewrite !mem_str_in in E. intuition congruence.
    + apply orb_false_iff in E as [E _]. simpl. split; [|tauto].
      intros [[<-|H]|H]; [|tauto|tauto]. right. split; [auto|]. rewrite <- mem_str_in. congruence.
Qed.

Lemma make_unique_nodup req existing : forall acc, NoDup acc -> NoDup (make_unique req existing acc).
Proof.
  induction req as [|x r IH]; intros acc H; simpl; [apply NoDup_rev; assumption|].
  destruct (mem_str x existing || mem_str x acc) eqn:E; apply IH; [assumption|].
  constructor; [|assumption]. apply orb_false_iff in E as [_ E]. rewrite <- mem_str_in. congruence.
Qed.

Lemma join_app a b : join (a ++ b) = join a ++ join b.
Proof. unfold join. rewrite map_app, concat_app. reflexivity. Qed.

Lemma new_offsets_length U : forall start, length (new_offsets start U) = length U.
Proof. induction U as [|u r IH]; intros start; simpl; [reflexivity | rewrite IH; reflexivity]. Qed.

(* offsets handed out from the end of a prefix P read the strings laid out behind P, one after the other *)
Lemma new_offsets_read b U : forall P, Forall clean U -> b <= N.of_nat (length P) ->
  Forall2 (fun o s => b <= o /\ resolve (P ++ join U) o = Ok s) (new_offsets (N.of_nat (length P)) U) U.
Proof.
  induction U as [|u r IH]; intros P HU Hb; simpl; constructor; inversion HU; subst.
  - split; [assumption|]. rewrite <- (N.add_0_r (N.of_nat (length P))), resolve_skip.
    change (join (u :: r)) with ((u ++ [0]) ++ join r). rewrite <- app_assoc. apply resolve_clean. assumption.
  - replace (N.of_nat (length P) + N.of_nat (length u) + 1) with (N.of_nat (length (P ++ u ++ [0])))
      by (rewrite !app_length; simpl; lia).
    replace (P ++ join (u :: r)) with ((P ++ u ++ [0]) ++ join r)
      by (change (join (u :: r)) with ((u ++ [0]) ++ join r); rewrite <- !app_assoc; reflexivity).
    apply IH; [assumption | rewrite app_length; lia].
Qed.

(* what add_strings produces: also when nothing has to be added (grown_nil) *)
Definition grown (w : nat) (t : str_section) (bin : bytes) (U : list (list N)) : str_section :=
  {| ss_num := ss_num t + N.of_nat (length U);
     ss_offsets := map (fun o => o + N.of_nat w * N.of_nat (length U)) (ss_offsets t)
                   ++ new_offsets (N.of_nat (length bin) + N.of_nat w * N.of_nat (length U)) U;
     ss_strings := ss_strings t ++ U |}.

Lemma grown_nil w t bin : grown w t bin [] = t.
Proof.
  destruct t as [n O S]. unfold grown. simpl. rewrite N.mul_0_r, N.add_0_r, !app_nil_r. f_equal.
  rewrite <- (map_id O) at 2. apply map_ext. intros o. apply N.add_0_r.
Qed.

Lemma add_strings_grown w req t bin T :
  str_encode w t = Ok bin -> mapM (resolve bin) (ss_offsets t) = Ok T ->
  add_strings w req t = Ok (grown w t bin (make_unique req T [])).
Proof.
  intros He HT. unfold add_strings. rewrite He. simpl. rewrite HT. simpl.
  destruct (make_unique req T []); [rewrite grown_nil|]; reflexivity.
Qed.

Lemma hdr_len_grown w t bin U : hdr_len w (grown w t bin U) = (hdr_len w t + w * length U)%nat.
Proof. unfold hdr_len. simpl. rewrite app_length, map_length, new_offsets_length. lia. Qed.

(* the lookup of the grown table is the old lookup followed by the new strings; every offset stays behind the header *)
Lemma grown_reads w t bin U bin' T :
  wf_table w t bin -> Forall clean U -> str_encode w (grown w t bin U) = Ok bin' ->
  mapM (resolve bin) (ss_offsets t) = Ok T ->
  Forall2 (fun o s => N.of_nat (hdr_len w (grown w t bin U)) <= o /\ resolve bin' o = Ok s)
          (ss_offsets (grown w t bin U)) (T ++ U).
Proof.
  intros [Hn Hc He Ho] HU He' HT.
  destruct (str_encode_shape _ _ _ Hn Hc He) as (H & -> & HH).
  destruct (str_encode_shape w (grown w t (H ++ join (ss_strings t)) U) bin') as (H' & -> & HH');
    [simpl; rewrite app_length, map_length, new_offsets_length; lia | apply Forall_app; auto | assumption |].
  rewrite hdr_len_grown in *. simpl ss_strings. rewrite join_app. apply Forall2_app.
  - apply Forall2_map_l. apply mapM_Forall2 in HT. revert HT. apply Forall2_impl_in. intros o s Hin Hr.
    rewrite Forall_forall in Ho. destruct (Ho o Hin) as [Hd _]. apply in_data_ge in Hd.
    split; [lia|]. apply (resolve_rebase H); [lia | lia | exact Hr].
  - replace (N.of_nat (length (H ++ join (ss_strings t))) + N.of_nat w * N.of_nat (length U))
      with (N.of_nat (length (H' ++ join (ss_strings t)))) by (rewrite !app_length; lia).
    rewrite app_assoc. apply new_offsets_read; [assumption | rewrite app_length; lia].
Qed.

Lemma grown_lookup w t bin U bin' T :
  wf_table w t bin -> Forall clean U -> str_encode w (grown w t bin U) = Ok bin' ->
  mapM (resolve bin) (ss_offsets t) = Ok T ->
  mapM (resolve bin') (ss_offsets (grown w t bin U)) = Ok (T ++ U).
Proof.
  intros Hwf HU He' HT. apply mapM_Forall2. generalize (grown_reads _ _ _ _ _ _ Hwf HU He' HT).
  apply Forall2_impl_in. tauto.
Qed.

Lemma grown_wf w t bin U bin' :
  wf_table w t bin -> Forall clean U -> str_encode w (grown w t bin U) = Ok bin' ->
  wf_table w (grown w t bin U) bin'.
Proof.
  intros Hwf HU He'. destruct (wf_mapM _ _ _ Hwf) as [T HT]. constructor.
  - simpl. rewrite app_length, map_length, new_offsets_length, (wf_num _ _ _ Hwf). lia.
  - apply Forall_app. split; [apply (wf_clean _ _ _ Hwf) | assumption].
  - assumption.
  - generalize (grown_reads _ _ _ _ _ _ Hwf HU He' HT). apply Forall2_impl_Forall_l.
    intros o s [Hb Hr]. split; [eapply in_data_intro|]; eauto.
Qed.

(* add_strings grows the table by the requested strings its lookup T does not hold, each once *)
Lemma add_strings_spec w req t bin T t' :
  wf_table w t bin -> Forall clean req -> mapM (resolve bin) (ss_offsets t) = Ok T ->
  add_strings w req t = Ok t' ->
  exists U, t' = grown w t bin U /\ NoDup U /\ Forall clean U /\
            (forall s, In s U -> In s req /\ ~ In s T) /\ (forall s, In s req -> In s (T ++ U)).
Proof.
  intros Hwf Hreq HT Hadd. rewrite (add_strings_grown _ _ _ _ _ (wf_enc _ _ _ Hwf) HT) in Hadd.
  inversion Hadd; subst t'. eexists. split; [reflexivity|].
  assert (forall s, In s (make_unique req T []) <-> In s req /\ ~ In s T) as HU
    by (intros s; rewrite make_unique_in; simpl; tauto).
  split; [exact (make_unique_nodup _ _ _ (NoDup_nil _))|].
  split.
  { rewrite Forall_forall in *. intros s Hs. apply Hreq, HU, Hs. }
  split; [exact (fun s => proj1 (HU s))|].
  intros s Hs. rewrite in_app_iff, HU, <- mem_str_in. destruct (mem_str s T); [auto|]. right. split; [exact Hs | discriminate].
Qed.

Lemma add_noop_when_all_resolvable w req t bin :
  wf_table w t bin -> (forall s, In s req -> resolvable t bin s) -> add_strings w req t = Ok t.
Proof.
  intros Hwf Hall. destruct (wf_mapM _ _ _ Hwf) as [T HT].
  rewrite (add_strings_grown _ _ _ _ _ (wf_enc _ _ _ Hwf) HT).
  destruct (make_unique req T []) as [|u U] eqn:E; [rewrite grown_nil; reflexivity|].
  assert (In u (make_unique req T [])) as Hu by (rewrite E; left; reflexivity).
  apply make_unique_in in Hu as [[]|[Hr Hn]]. destruct Hn. apply (lookup_resolvable _ _ _ HT), Hall, Hr.
Qed.

Theorem add_strings_correct w req t bin t' bin' :
  wf_table w t bin -> Forall clean req ->
  add_strings w req t = Ok t' -> str_encode w t' = Ok bin' ->
  wf_table w t' bin' /\
  (forall i o s, nth_error (ss_offsets t) i = Some o -> resolve bin o = Ok s ->
                 exists o', nth_error (ss_offsets t') i = Some o' /\ resolve bin' o' = Ok s) /\
  (forall s, In s req -> resolvable t' bin' s) /\
  (exists U, ss_strings t' = ss_strings t ++ U /\ NoDup U /\
             forall s, In s U -> In s req /\ ~ resolvable t bin s) /\
  add_strings w req t' = Ok t'.
Proof.
  intros Hwf Hreq Hadd He'. destruct (wf_mapM _ _ _ Hwf) as [T HT].
  destruct (add_strings_spec _ _ _ _ _ _ Hwf Hreq HT Hadd) as (U & -> & Hnd & HU & Hsub & Hcov).
  pose proof (grown_wf _ _ _ _ _ Hwf HU He') as Hwf'.
  pose proof (grown_lookup _ _ _ _ _ _ Hwf HU He' HT) as HT'.
  pose proof (lookup_resolvable _ _ _ HT) as RT. pose proof (lookup_resolvable _ _ _ HT') as RT'.
  assert (forall s, In s req -> resolvable (grown w t bin U) bin' s) as Hall by (intros s Hs; apply RT', Hcov, Hs).
  split; [exact Hwf'|].
  split.
  { intros i o s Hn Hr. pose proof (lookup_nth _ _ _ _ _ _ HT Hn Hr) as HnT.
    apply mapM_Forall2 in HT'. apply (Forall2_nth_r _ _ _ i s HT').
    rewrite nth_error_app1; [assumption | apply nth_error_Some; congruence]. }
  split; [exact Hall|].
  split.
  { exists U. split; [reflexivity|]. split; [assumption|]. intros s Hs. rewrite RT. apply Hsub. assumption. }
  exact (add_noop_when_all_resolvable _ _ _ _ Hwf' Hall).
Qed.

Theorem strx_of_str_preserves t bin bin4 i o s :
  wf_table 2 t bin -> str_encode 4 (generate_strx t) = Ok bin4 ->
  nth_error (ss_offsets t) i = Some o -> resolve bin o = Ok s ->
  exists o', nth_error (ss_offsets (generate_strx t)) i = Some o' /\ resolve bin4 o' = Ok s.
Proof.
  intros [Hn Hc He Ho] He4 Hi Hr.
  destruct (str_encode_shape _ _ _ Hn Hc He) as (H & -> & HH).
  destruct (str_encode_shape 4 (generate_strx t) bin4) as (H4 & -> & HH4);
    [simpl; rewrite map_length; assumption | assumption | assumption |].
  rewrite Forall_forall in Ho. destruct (Ho o (nth_error_In _ _ Hi)) as [Hd _]. apply in_data_ge in Hd.
  eexists. split; [cbn [generate_strx ss_offsets]; rewrite nth_error_map, Hi; reflexivity|].
  rewrite <- (app_nil_r (join _)). apply (resolve_rebase H); [rewrite HH; exact Hd | | exact Hr].
  (* the shift 2 + 2n of generate_strx (total_byte_shifts in the source) is the growth of the header: a count and n offsets,
     each two bytes wider *)
  rewrite HH4, HH. unfold hdr_len. cbn [generate_strx ss_offsets]. rewrite map_length. lia.
Qed.

(* non-vacuity: a table holding a string that no id refers to (behind such a tail, before the fix 31ffbf5, a new id
   resolved to old text) is well-formed *)
Example wf_example :
  let t := {| ss_num := 1; ss_offsets := [4]; ss_strings := [[97]; [122; 122; 122]] |} in
  wf_table 2 t [1; 0; 4; 0; 97; 0; 122; 122; 122; 0].
Proof.
  constructor; simpl.
  - reflexivity.
  - repeat constructor; lia.
  - vm_compute. reflexivity.
  - repeat constructor.
    + exists 0%nat. split; [reflexivity | simpl; lia].
    + eexists. vm_compute. reflexivity.
Qed.
