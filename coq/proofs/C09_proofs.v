(* C09 / C14: the four slot editors and the SWNM rebuilder, with the constants read from the source: what a successful
   call guarantees (table_sound), when a call raises or cannot, and that the iteration order of a batch only renumbers
   the new slots.  Each is the engine's theorem (Alloc_proofs) at the table's mode; add_locations and rebuild_swnm check
   indices up front. *)
From Coq Require Import String NArith List Bool Lia PeanoNat Permutation.
From RC Require Import lib.Result model.Alloc proofs.Alloc_proofs gen.GenConsts.
Import ListNotations.
Local Open Scope N_scope.

Definition table_sound (lo hi : N) (reserved : list N) (existing : list N) (reqs : list request) (outs : list outcome) : Prop :=
  Forall2 outcome_fits reqs outs /\                       (* objects that carry an index keep it, or are not placed *)
  NoDup (placed_ids outs) /\                              (* no slot is given to two objects *)
  (forall i, In i (placed_ids outs) -> ~ In i existing) /\   (* every slot used was empty *)
  (forall i, In i (fresh_ids reqs outs) ->                  (* new ids: inside the range, not reserved, free *)
     lo <= i /\ i <= hi /\ ~ In i reserved /\ ~ In i existing).

Lemma engine_table_sound b rg lo count reserved existing reqs outs :
  engine b true rg reqs existing (free_ids lo count reserved existing) = Ok outs ->
  table_sound lo (lo + count - 1) reserved existing reqs outs.
Proof.
  intros H. destruct (engine_sound b rg _ _ _ _ H (free_ids_takable _ _ _ _)) as [F T].
  apply takable_spec in T as [N1 N2].
  destruct (engine_fresh_sound _ _ _ _ _ _ _ H (free_ids_nodup _ _ _ _)) as [N3 _].
  split; [exact F|]. split; [exact N1|]. split; [exact N2|].
  intros i Hi. apply N3, free_ids_spec in Hi as (Hlo & Hhi & Hu & Hr). repeat split; [assumption | lia | assumption | assumption].
Qed.

Lemma carried_first_eq reqs : carried_first reqs = filter is_carry reqs ++ filter (fun r => negb (is_carry r)) reqs.
Proof. unfold carried_first. f_equal. apply filter_ext. intros [k| |]; reflexivity. Qed.

Lemma carried_first_sorted a b :
  (forall r, In r a -> is_carry r = true) -> (forall r, In r b -> is_carry r = false) -> carried_first (a ++ b) = a ++ b.
Proof.
  intros Ha Hb. rewrite carried_first_eq, !filter_app.
  rewrite (filter_all is_carry a Ha), (filter_none is_carry b Hb), app_nil_r.
  rewrite (filter_none _ a), (filter_all _ b); [reflexivity | |].
  - intros r Hr. rewrite (Hb r Hr). reflexivity.
  - intros r Hr. rewrite (Ha r Hr). reflexivity.
Qed.

Lemma RCarry_is_carry ks r : In r (map RCarry ks) -> is_carry r = true.
Proof. intros H. apply in_map_iff in H as (k & <- & _). reflexivity. Qed.

Lemma carried_ids_in k reqs : In k (carried_ids reqs) <-> In (RCarry k) reqs.
Proof.
  unfold carried_ids. rewrite in_flat_map. split.
  - intros (r & Hr & Hk). destruct r; simpl in Hk; try tauto. destruct Hk as [->|[]]. exact Hr.
  - intros H. exists (RCarry k). simpl. auto.
Qed.

Lemma count_fresh_carried_first reqs : count_fresh (carried_first reqs) = count_fresh reqs.
Proof.
  rewrite carried_first_eq. unfold count_fresh. rewrite filter_app, app_length.
  induction reqs as [|r reqs IH]; simpl; [reflexivity|]. destruct r; simpl; lia.
Qed.

Lemma in_carried_first r reqs : In r (carried_first reqs) <-> In r reqs.
Proof. rewrite carried_first_eq, in_app_iff, !filter_In. destruct (is_carry r); simpl; intuition discriminate. Qed.

Definition loc_range : option (N * N) := Some (1, MAX_LOCATIONS).

Lemma loc_range_spec k : in_range loc_range k = true <-> 1 <= k <= 255.
Proof.
  unfold in_range, loc_range, MAX_LOCATIONS. rewrite negb_true_iff, orb_false_iff, !N.ltb_ge. tauto.
Qed.

Lemma add_locations_eq existing reqs :
  add_locations existing reqs =
  if forallb (in_range loc_range) (existing ++ carried_ids reqs)
  then engine true true loc_range (carried_first reqs) existing (free_ids 1 MAX_LOCATIONS [ANYWHERE_LOCATION_ID] existing)
  else Raise ValueError.
Proof.
  unfold add_locations. replace (forallb (in_range loc_range) (existing ++ carried_ids reqs))
    with (negb (existsb (fun k => (k <? 1) || (MAX_LOCATIONS <? k)) (existing ++ carried_ids reqs))).
  - destruct (existsb _ _); reflexivity.
  - induction (existing ++ carried_ids reqs) as [|k l IH]; simpl; [reflexivity|]. rewrite negb_orb, IH. reflexivity.
Qed.

Lemma add_locations_ok existing reqs outs : add_locations existing reqs = Ok outs ->
  (forall k, In k (existing ++ carried_ids reqs) -> in_range loc_range k = true) /\
  engine true true loc_range (carried_first reqs) existing (free_ids 1 MAX_LOCATIONS [ANYWHERE_LOCATION_ID] existing) = Ok outs.
Proof.
  rewrite add_locations_eq. destruct (forallb _ _) eqn:E; [|discriminate]. rewrite forallb_forall in E. auto.
Qed.

Lemma add_cuwp_slots_eq existing reqs :
  add_cuwp_slots existing reqs = engine false true None (carried_first reqs) existing (free_ids 1 MAX_CUWP_SLOTS [] existing).
Proof. reflexivity. Qed.

Lemma add_wav_files_eq existing reqs :
  add_wav_files existing reqs = engine false true None reqs existing (free_ids 0 MAX_WAV_FILES [] existing).
Proof. reflexivity. Qed.

Lemma add_switches_eq existing reqs :
  add_switches existing reqs = engine false true None (carried_first reqs) existing (free_ids 0 MAX_SWITCHES [] existing).
Proof. reflexivity. Qed.

(* the rebuilder's mode: carried indices, all below MAX_SWITCHES, are reserved beforehand and always placed *)
Lemma rebuild_swnm_inv reqs outs :
  rebuild_swnm reqs = Ok outs ->
  (forall k, In k (carried_ids reqs) -> k < MAX_SWITCHES) /\
  engine false false None reqs [] (free_ids 0 MAX_SWITCHES [] (carried_ids reqs)) = Ok outs.
Proof.
  unfold rebuild_swnm. destruct (existsb _ _) eqn:E; [discriminate|]. intros H. split; [|exact H].
  intros k Hk. apply N.leb_gt, not_true_iff_false. intros Ek.
  apply not_true_iff_false in E. apply E, existsb_exists. exists k. auto.
Qed.

(* The statements below spell each table's range out in numbers (1..255 without 64; 1..64; 0..511; 0..255): lo .. lo +
   MAX_* - 1 and [ANYWHERE_LOCATION_ID] of the generated constants, equal by computation, so a changed constant of the
   source stops these proofs compiling. *)
Theorem add_locations_sound existing reqs outs :
  add_locations existing reqs = Ok outs ->
  table_sound 1 255 [64] existing (carried_first reqs) outs.
Proof. intros H. apply add_locations_ok in H as [_ H]. exact (engine_table_sound _ _ _ _ _ _ _ _ H). Qed.

Theorem add_cuwp_slots_sound existing reqs outs :
  add_cuwp_slots existing reqs = Ok outs ->
  table_sound 1 64 [] existing (carried_first reqs) outs.
Proof. rewrite add_cuwp_slots_eq. exact (engine_table_sound false None 1 MAX_CUWP_SLOTS [] _ _ _). Qed.

Theorem add_wav_files_sound existing reqs outs :
  add_wav_files existing reqs = Ok outs -> table_sound 0 511 [] existing reqs outs.
Proof. rewrite add_wav_files_eq. exact (engine_table_sound false None 0 MAX_WAV_FILES [] _ _ _). Qed.

Theorem add_switches_sound existing reqs outs :
  add_switches existing reqs = Ok outs -> table_sound 0 255 [] existing (carried_first reqs) outs.
Proof. rewrite add_switches_eq. exact (engine_table_sound false None 0 MAX_SWITCHES [] _ _ _). Qed.

(* SWNM rebuild: ids handed to index-less switches are in range, distinct, and never an index that
   some used switch carries *)
Theorem rebuild_swnm_sound reqs outs :
  rebuild_swnm reqs = Ok outs ->
  NoDup (fresh_ids reqs outs) /\
  forall i, In i (fresh_ids reqs outs) -> i <= 255 /\ ~ In i (carried_ids reqs).
Proof.
  intros [_ H]%rebuild_swnm_inv.
  destruct (engine_fresh_sound false false None _ _ _ _ H (free_ids_nodup _ _ _ _)) as [A B].
  split; [assumption|]. intros i Hi. apply A in Hi. apply free_ids_spec in Hi.
  unfold MAX_SWITCHES in Hi. split; [lia | tauto].
Qed.

Theorem cuwp_exhaustion_raises existing reqs :
  (length (free_ids 1 MAX_CUWP_SLOTS [] existing) < count_fresh (carried_first reqs))%nat ->
  exists e, add_cuwp_slots existing reqs = Raise e.
Proof. rewrite add_cuwp_slots_eq. apply engine_exhausted. Qed.

Theorem wav_exhaustion_raises existing reqs :
  (length (free_ids 0 MAX_WAV_FILES [] existing) < count_fresh reqs)%nat ->
  exists e, add_wav_files existing reqs = Raise e.
Proof. rewrite add_wav_files_eq. apply engine_exhausted. Qed.

Theorem switches_exhaustion_raises existing reqs :
  (length (free_ids 0 MAX_SWITCHES [] existing) < count_fresh reqs)%nat ->
  exists e, add_switches existing reqs = Raise e.
Proof. intros H. rewrite add_switches_eq. apply engine_exhausted. rewrite count_fresh_carried_first. exact H. Qed.

Theorem full_table_never_blocks_a_noop existing reqs :
  count_fresh reqs = 0%nat ->
  ((forall k, In (RCarry k) reqs -> 1 <= k <= 255) -> (forall k, In k existing -> 1 <= k <= 255) ->
   exists o, add_locations existing reqs = Ok o) /\   (* location indices inside the table *)
  (exists o, add_cuwp_slots existing reqs = Ok o) /\
  (exists o, add_wav_files existing reqs = Ok o) /\ (exists o, add_switches existing reqs = Ok o).
Proof.
  intros H. assert (count_fresh (carried_first reqs) = 0%nat) as H' by (rewrite count_fresh_carried_first; exact H).
  split; [|split; [|split]].
  - intros Hr He. rewrite add_locations_eq.
    assert (forall k, In (RCarry k) reqs -> in_range loc_range k = true) as Hr' by (intros k Hk; apply loc_range_spec; auto).
    replace (forallb _ _) with true.
    + apply engine_no_fresh_ok; [|exact H']. intros k Hk. apply Hr', in_carried_first, Hk.
    + symmetry. apply forallb_forall. intros k Hk. apply in_app_iff in Hk as [Hk|Hk]; [apply loc_range_spec; auto|].
      apply Hr', carried_ids_in, Hk.
  - rewrite add_cuwp_slots_eq. apply engine_no_fresh_ok; [intros; reflexivity | exact H'].
  - rewrite add_wav_files_eq. apply engine_no_fresh_ok; [intros; reflexivity | exact H].
  - rewrite add_switches_eq. apply engine_no_fresh_ok; [intros; reflexivity | exact H'].
Qed.

(* an index outside the table is refused before anything is placed, however full the table is and wherever the
   location sits (in the section already, or only in a trigger) *)
Theorem out_of_range_location_is_refused existing reqs k :
  In k (existing ++ carried_ids reqs) -> k < 1 \/ 255 < k -> add_locations existing reqs = Raise ValueError.
Proof.
  intros Hin Hk. rewrite add_locations_eq. destruct (forallb _ _) eqn:E; [|reflexivity].
  rewrite forallb_forall in E. apply E, loc_range_spec in Hin. lia.
Qed.

(* MRGN does not raise when it runs out: a location without an index gets a slot or is left unplaced (the save then
   raises when a trigger asks for its id — pipeline level), never dropped or taken for one that has a slot *)
Theorem location_without_index_is_placed_or_unplaced existing reqs outs :
  add_locations existing reqs = Ok outs ->
  forall r o, In (r, o) (combine (carried_first reqs) outs) -> r = RFresh ->
    (exists i, o = Placed i) \/ o = Unplaced.
Proof.
  intros H r o Hin ->. destruct (add_locations_sound _ _ _ H) as (F & _).
  apply (Forall2_combine_in _ _ _ _ _ F) in Hin. destruct o; simpl in Hin; try contradiction; eauto.
Qed.

Example anywhere_is_never_allocated :
  add_locations (range_from 1 62) (repeat RFresh 3) = Ok [Placed 63; Placed 65; Placed 66].
Proof. vm_compute. reflexivity. Qed.

Example carried_index_is_respected :
  add_locations [] [RFresh; RCarry 1; RCarry 1] = Ok [Placed 1; Dropped; Placed 2].
Proof. vm_compute. reflexivity. Qed.

Lemma carried_first_canonical l n :
  carried_first (map RCarry l ++ repeat RFresh n) = map RCarry l ++ repeat RFresh n.
Proof. apply carried_first_sorted; [apply RCarry_is_carry|]. intros r Hr. apply repeat_spec in Hr as ->. reflexivity. Qed.

Lemma carried_ids_canonical l n : carried_ids (map RCarry l ++ repeat RFresh n) = l.
Proof.
  induction l as [|k l IH]; simpl; [induction n; simpl; auto | f_equal; exact IH].
Qed.

(* order_independent_gen at each table's mode: the same statement for the three editors that sort carried indices first
   (the location table leaves the surplus unplaced, the other two raise) *)
Theorem cuwp_order_independent existing ks ks' n :
  Permutation ks ks' -> NoDup ks -> (forall k, In k ks -> ~ In k existing) ->
  match add_cuwp_slots existing (map RCarry ks ++ repeat RFresh n),
        add_cuwp_slots existing (map RCarry ks' ++ repeat RFresh n) with
  | Ok o, Ok o' =>
      fresh_ids (map RCarry ks ++ repeat RFresh n) o = fresh_ids (map RCarry ks' ++ repeat RFresh n) o' /\
      Permutation (placed_ids o) (placed_ids o') /\
      skipn (length ks) o = skipn (length ks') o'
  | Raise _, Raise _ => True
  | _, _ => False
  end.
Proof.
  intros P Hnd Hun. rewrite !add_cuwp_slots_eq, !carried_first_canonical.
  apply (order_independent_gen false None ks ks' n existing _ P Hnd Hun). intros; reflexivity.
Qed.

Theorem locations_order_independent existing ks ks' n :
  Permutation ks ks' -> NoDup ks -> (forall k, In k ks -> ~ In k existing) ->
  match add_locations existing (map RCarry ks ++ repeat RFresh n),
        add_locations existing (map RCarry ks' ++ repeat RFresh n) with
  | Ok o, Ok o' =>
      fresh_ids (map RCarry ks ++ repeat RFresh n) o = fresh_ids (map RCarry ks' ++ repeat RFresh n) o' /\
      Permutation (placed_ids o) (placed_ids o') /\
      skipn (length ks) o = skipn (length ks') o'
  | Raise _, Raise _ => True
  | _, _ => False
  end.
Proof.
  intros P Hnd Hun. rewrite !add_locations_eq, !carried_first_canonical, !carried_ids_canonical.
  rewrite <- (forallb_perm _ _ _ (Permutation_app_head existing P)).
  destruct (forallb _ _) eqn:E; [|exact I]. rewrite forallb_forall in E.
  apply (order_independent_gen true loc_range ks ks' n existing _ P Hnd Hun).
  intros k Hk. apply E, in_or_app. auto.
Qed.

Theorem switches_order_independent existing ks ks' n :
  Permutation ks ks' -> NoDup ks -> (forall k, In k ks -> ~ In k existing) ->
  match add_switches existing (map RCarry ks ++ repeat RFresh n),
        add_switches existing (map RCarry ks' ++ repeat RFresh n) with
  | Ok o, Ok o' =>
      fresh_ids (map RCarry ks ++ repeat RFresh n) o = fresh_ids (map RCarry ks' ++ repeat RFresh n) o' /\
      Permutation (placed_ids o) (placed_ids o') /\
      skipn (length ks) o = skipn (length ks') o'
  | Raise _, Raise _ => True
  | _, _ => False
  end.
Proof.
  intros P Hnd Hun. rewrite !add_switches_eq, !carried_first_canonical.
  apply (order_independent_gen false None ks ks' n existing _ P Hnd Hun). intros; reflexivity.
Qed.

(* a location that carries a free index inside the table is placed there however full the table is (before the fix
   620b222 a full table - e.g. only the reserved slot 64 left - left it out and the save died) *)
Theorem carried_free_location_is_placed_even_when_full existing ks rest outs :
  NoDup ks -> (forall k, In k ks -> ~ In k existing) ->
  add_locations existing (map RCarry ks ++ rest) = Ok outs ->
  forallb (fun r => match r with RCarry _ => false | _ => true end) rest = true ->
  firstn (length ks) outs = map Placed ks.
Proof.
  intros Hnd Hun H Hrest. apply add_locations_ok in H as [Hrg H].
  assert (forall r, In r rest -> is_carry r = false) as Hrest'.
  { rewrite forallb_forall in Hrest. intros r Hr. apply Hrest in Hr. destruct r; [discriminate | reflexivity..]. }
  assert (forall k, In k ks -> in_range loc_range k = true) as Hin.
  { intros k Hk. apply Hrg, in_or_app. right. apply carried_ids_in, in_or_app. left. apply in_map. exact Hk. }
  rewrite (carried_first_sorted _ _ (RCarry_is_carry ks) Hrest'), (engine_carried_prefix_gen _ _ _ _ _ _ Hnd Hun Hin) in H.
  inv_bind H as o Ho Hk. inversion Hk; subst outs. apply firstn_app_exact, map_length.
Qed.

Example carried_64_on_a_full_table : 
  add_locations (range_from 1 63 ++ range_from 65 191) [RCarry 64] = Ok [Placed 64].
Proof. vm_compute. reflexivity. Qed.
