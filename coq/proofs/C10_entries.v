(* C10, inside a trigger: the entries the rich layer does not model (type byte outside the enumeration, or inside it
   without a transcoder) come out of decode -> encode field for field, in their original order and - when no empty slot
   precedes them - at their original position, whatever the other entries and the two lookup contexts are.  Lifted to
   whole triggers, TRIG sections and the load -> edit elsewhere -> save path. *)
From Coq Require Import String NArith List Bool Lia PeanoNat.
From RC Require Import lib.Result lib.Bytes model.Layout model.Str model.ChkIo model.Flags model.TrigTable
  model.RichCodec model.RichIo proofs.C05_proofs proofs.Entries proofs.Save_shape proofs.C10_proofs
  gen.GenTrig gen.GenFlags gen.GenConsts.
Import ListNotations.
Local Open Scope string_scope.
Local Open Scope list_scope.
Local Open Scope N_scope.

Definition src_is_own (s : enc_src) : bool := match s with EOwnId => true | _ => false end.

Section Entries.
  Variable table : list trig_entry.
  Variable enum idf : string.
  Variable flagc : flag_codec.
  Variable fields : list string.

  Hypothesis fields_nodup : NoDup fields.
  Hypothesis idf_in : In idf fields.
  Hypothesis idf_not_flags : idf <> "_flags".

  (* checked of the generated table by evaluation: every entry writes its own type number, which is its key, into the id
     field, and no field twice; its key is in the enumeration and not the empty type; the empty type is in it too *)
  Definition table_ids_ok : bool :=
    forallb (fun e => (te_own_id e =? te_key e)
                      && existsb (fun row => String.eqb (fst row) idf && src_is_own (snd row)) (te_enc e)
                      && nodup_strs (map fst (te_enc e))
                      && enum_has enum (te_key e) && negb (te_key e =? NO_ENTRY)) table
    && enum_has enum NO_ENTRY.
  Hypothesis table_ok : table_ids_ok = true.

  (* the entries this layer does not model *)
  Definition is_raw_val (v : val) : bool :=
    let id := vint idf v in
    negb (enum_has enum id)
    || (negb (id =? NO_ENTRY) && match find_entry id table with None => true | Some _ => false end).

  (* v re-read through the field list: exactly the record's fields, in order - the form the binary decoder produces *)
  Definition norm (v : val) : val := rec_val fields (val_rec fields v).

  Lemma is_raw_norm v : is_raw_val (norm v) = is_raw_val v.
  Proof. unfold is_raw_val, norm. rewrite vint_rec_val, rec_get_val_rec by assumption. reflexivity. Qed.

  Lemma norm_entry_val vals : length vals = length fields -> norm (entry_val fields vals) = entry_val fields vals.
  Proof. intros H. exact (rec_val_val_rec_id fields fields_nodup vals H). Qed.

  (* is_raw_val is the guard of the ERaw outcome of decode_entry_of_inv *)
  Lemma is_raw_val_iff v :
    is_raw_val v = true <->
    enum_has enum (vint idf v) = false \/ vint idf v <> NO_ENTRY /\ find_entry (vint idf v) table = None.
  Proof.
    unfold is_raw_val. rewrite orb_true_iff, andb_true_iff, !negb_true_iff, N.eqb_neq.
    destruct (find_entry (vint idf v) table); intuition congruence.
  Qed.

  Lemma table_ids_ok_facts :
    enum_has enum NO_ENTRY = true /\
    forall e, In e table ->
      te_own_id e = te_key e /\ In (idf, EOwnId) (te_enc e) /\ NoDup (map fst (te_enc e)) /\
      enum_has enum (te_key e) = true /\ te_key e <> NO_ENTRY.
  Proof.
    apply andb_true_iff in table_ok as [Hall H0]. split; [exact H0|]. intros e He.
    rewrite forallb_forall in Hall. specialize (Hall e He).
    rewrite !andb_true_iff in Hall. destruct Hall as [[[[Hown Hrow] Hnd] Hen] Hnz].
    apply N.eqb_eq in Hown. apply nodup_strs_spec in Hnd. apply negb_true_iff, N.eqb_neq in Hnz.
    apply existsb_exists in Hrow as ([f src] & Hrow & Hp). cbn [fst snd] in Hp.
    apply andb_true_iff in Hp as [Hf Hs]. apply String.eqb_eq in Hf. subst f. destruct src; try discriminate.
    exact (conj Hown (conj Hrow (conj Hnd (conj Hen Hnz)))).
  Qed.

  Lemma empty_not_raw : is_raw_val (empty_entry fields) = false.
  Proof.
    destruct table_ids_ok_facts as [H0 _]. apply not_true_is_false. rewrite is_raw_val_iff.
    rewrite vint_empty_entry by assumption. change 0 with NO_ENTRY. intros [E|[E _]].
    - congruence.
    - exact (E eq_refl).
  Qed.

  (* a supported entry is written back with its own type byte: never a raw entry *)
  Lemma rich_encodes_supported cx key args fl v :
    encode_entry_of cx table flagc fields (ERich key args fl) = Ok v -> is_raw_val v = false.
  Proof.
    intros H. destruct (encode_entry_of_rich _ _ _ _ _ _ _ _ H) as (te & r & fx & Hf & Hr & _ & ->).
    destruct (find_entry_in _ _ _ Hf) as [Hin Hkey].
    destruct (proj2 table_ids_ok_facts te Hin) as (Hown & Hrow & Hnd & Hen & Hnz).
    destruct (encode_entry_field _ _ _ _ _ _ _ _ Hr Hnd Hrow) as (n & [= <-] & Hid).
    apply not_true_is_false. rewrite is_raw_val_iff, vint_rec_val by assumption. rewrite rec_get_with_flags, Hid.
    apply String.eqb_neq in idf_not_flags. rewrite idf_not_flags, Hown. intros [E|[_ E]]; congruence.
  Qed.

  (* one entry through decode and encode: an empty slot is dropped, and was not raw; a raw entry is written back as itself,
     field for field; a supported entry as a supported one *)
  Lemma entry_cycle cx cx' v o :
    decode_entry_of cx table enum idf flagc fields v = Ok o ->
    match o with
    | None => is_raw_val v = false /\ vint idf v = NO_ENTRY
    | Some e =>
        forall v', encode_entry_of cx' table flagc fields e = Ok v' ->
                   if is_raw_val v then v' = norm v else is_raw_val v' = false
    end.
  Proof.
    intros H. apply decode_entry_of_inv in H. destruct o as [[r|key args fl]|].
    - destruct H as [-> Hraw%is_raw_val_iff]. rewrite Hraw. intros v' [= <-]. reflexivity.
    - destruct H as (-> & Hen & Hnz & te & Hf & _).
      assert (is_raw_val v = false) as -> by (apply not_true_is_false; rewrite is_raw_val_iff; intros [E|[_ E]]; congruence).
      intros v'. apply rich_encodes_supported.
    - destruct H as [Hen Hz]. split; [|exact Hz]. apply not_true_is_false. rewrite is_raw_val_iff. intros [E|[E _]]; congruence.
  Qed.

  (* the raw entries of the output are the raw entries of the input, one for one, in order; padding adds none *)
  Theorem raw_entries_keep_their_order cx cx' n : forall vs os vs',
    mapM (decode_entry_of cx table enum idf flagc fields) vs = Ok os ->
    mapM (encode_entry_of cx' table flagc fields) (somes os) = Ok vs' ->
    filter is_raw_val (pad_to n (empty_entry fields) vs') = map norm (filter is_raw_val vs).
  Proof using fields_nodup idf_in idf_not_flags table_ok.
    intros vs os vs' Hd He. unfold pad_to. rewrite filter_app, (filter_none _ (repeat _ _)), app_nil_r
      by (intros x ->%repeat_spec; exact empty_not_raw).
    revert os vs' Hd He. induction vs as [|v vs IH]; intros os vs' Hd He.
    - simpl in Hd. inversion Hd; subst os. simpl in He. inversion He; reflexivity.
    - apply mapM_cons_inv in Hd as (o & os' & Ho & Hos & ->).
      pose proof (entry_cycle cx cx' v o Ho) as Hc. destruct o as [e|]; cbn [somes] in He.
      + apply mapM_cons_inv in He as (v' & rest & Hv' & Hrest & ->).
        specialize (Hc v' Hv'). simpl. destruct (is_raw_val v) eqn:Er.
        * subst v'. rewrite is_raw_norm, Er. simpl. f_equal. eauto.
        * rewrite Hc. eauto.
      + destruct Hc as [Hc _]. simpl. rewrite Hc. eauto.
  Qed.

  (* with no empty slot before it, a raw entry keeps its index *)
  Theorem raw_entry_keeps_its_position cx cx' n : forall vs os vs' k v,
    mapM (decode_entry_of cx table enum idf flagc fields) vs = Ok os ->
    mapM (encode_entry_of cx' table flagc fields) (somes os) = Ok vs' ->
    forallb (fun x => negb (vint idf x =? NO_ENTRY) || is_raw_val x) (firstn k vs) = true ->
    nth_error vs k = Some v -> is_raw_val v = true ->
    nth_error (pad_to n (empty_entry fields) vs') k = Some (norm v).
  Proof using fields_nodup idf_in idf_not_flags table_ok.
    intros vs os vs' k v Hd He Hpre Hn Hr.
    destruct (mapM_nth _ _ _ _ _ Hd Hn) as (o & Ho & Hok). pose proof (entry_cycle cx cx' v o Ho) as Hc.
    destruct o as [e|]; [|destruct Hc; congruence].
    assert (k < length vs)%nat as Hk by (apply nth_error_Some; congruence).
    (* nothing before position k was dropped, so somes keeps position k *)
    assert (nth_error (somes os) k = Some e) as Hs.
    { apply somes_nth_prefix; [|exact Hok]. intros j Hj Hnone.
      destruct (nth_error vs j) as [x|] eqn:Hx; [|apply nth_error_None in Hx; lia].
      destruct (mapM_nth _ _ _ _ _ Hd Hx) as (o' & Ho' & Hoj). rewrite Hoj in Hnone. inversion Hnone; subst o'.
      destruct (entry_cycle cx cx' x None Ho') as [Hx1 Hx2]. rewrite forallb_forall in Hpre.
      assert (In x (firstn k vs)) as Hxin.
      { rewrite <- (firstn_skipn k vs) in Hx. rewrite nth_error_app1 in Hx by (rewrite firstn_length; lia).
        eapply nth_error_In; eauto. }
      specialize (Hpre x Hxin). rewrite Hx1, Hx2, N.eqb_refl in Hpre. discriminate. }
    destruct (mapM_nth _ _ _ _ _ He Hs) as (v' & Hv' & Hn'). specialize (Hc v' Hv'). rewrite Hr in Hc. subst v'.
    exact (pad_to_nth _ _ _ _ _ Hn').
  Qed.
End Entries.

Lemma action_table_ids_ok : table_ids_ok gen_action_table "TriggerActionId" "_action_id" = true.
Proof. vm_compute. reflexivity. Qed.

Lemma condition_table_ids_ok : table_ids_ok gen_condition_table "TriggerConditionId" "_condition_id" = true.
Proof. vm_compute. reflexivity. Qed.

Definition raw_action : val -> bool := is_raw_val gen_action_table "TriggerActionId" "_action_id".
Definition raw_condition : val -> bool := is_raw_val gen_condition_table "TriggerConditionId" "_condition_id".

Lemma vlist_mk_struct_head f l rest : vlist f (mk_struct ((f, VList l) :: rest)) = l.
Proof. unfold vlist. rewrite vfield_head. reflexivity. Qed.

Theorem trigger_raw_entries_survive cx cx' v t v' :
  trigger_decode cx v = Ok t -> trigger_encode cx' t = Ok v' ->
  filter raw_action (vlist "_actions" v') = map (norm action_record_fields) (filter raw_action (vlist "_actions" v)) /\
  filter raw_condition (vlist "_conditions" v') = map (norm condition_record_fields) (filter raw_condition (vlist "_conditions" v)).
Proof.
  intros Hd He.
  destruct (trigger_decode_inv _ _ _ Hd) as (cs & acts & Hcs & Hacts & Ec & Ea).
  destruct (trigger_encode_inv _ _ _ He) as (cs' & acts' & Hcs' & Hacts' & _ & _ & -> & ->). rewrite Ec in Hcs'. rewrite Ea in Hacts'.
  split.
  - exact (raw_entries_keep_their_order gen_action_table "TriggerActionId" "_action_id" action_flags_codec action_record_fields
             (proj1 record_fields_nodup) (proj1 action_id_field) (proj2 action_id_field) action_table_ids_ok
             cx cx' _ _ _ _ Hacts Hacts').
  - exact (raw_entries_keep_their_order gen_condition_table "TriggerConditionId" "_condition_id" condition_flags_codec
             condition_record_fields (proj2 record_fields_nodup) (proj1 condition_id_field) (proj2 condition_id_field)
             condition_table_ids_ok cx cx' _ _ _ _ Hcs Hcs').
Qed.

Definition raw_entries_preserved (tv tv' : val) : Prop :=
  filter raw_action (vlist "_actions" tv') = map (norm action_record_fields) (filter raw_action (vlist "_actions" tv)) /\
  filter raw_condition (vlist "_conditions" tv') = map (norm condition_record_fields) (filter raw_condition (vlist "_conditions" tv)).

(* decode a TRIG section, append triggers, encode under any other context: trigger k of the input is trigger k of the
   output, with its unmodelled entries preserved *)
Theorem trig_section_raw_entries_survive cx cx' v ts new v' :
  trig_decode cx v = Ok ts -> trig_encode cx' (ts ++ new) = Ok v' ->
  (length (vlist "_triggers" v) <= length (vlist "_triggers" v'))%nat /\
  forall k tv, nth_error (vlist "_triggers" v) k = Some tv ->
    exists tv', nth_error (vlist "_triggers" v') k = Some tv' /\ raw_entries_preserved tv tv'.
Proof.
  intros Hd He. destruct (trig_section_triggerwise_app _ _ _ _ _ _ Hd He) as [Hl H]. split; [lia|].
  intros k tv Hn. destruct (H k tv Hn) as (t & tv' & Ht & Htv' & Hn'). exists tv'. split; [exact Hn'|].
  eapply trigger_raw_entries_survive; eauto.
Qed.

Theorem raw_trigger_entries_survive_load_edit_save d r r' wd d' i v ts new :
  load d = Ok r -> nth_error d i = Some (DTab "TRIG" v) ->
  nth_error r i = Some (RTrig ts) -> nth_error r' i = Some (RTrig (ts ++ new)) ->
  save wd r' = Ok d' ->
  exists v', nth_error d' i = Some (DTab "TRIG" v') /\
    forall k tv, nth_error (vlist "_triggers" v) k = Some tv ->
      exists tv', nth_error (vlist "_triggers" v') k = Some tv' /\ raw_entries_preserved tv tv'.
Proof.
  intros Hl Hn Hr Hr' Hs.
  destruct (load_nth _ _ _ _ Hl Hn) as (cx & y & _ & Hy & Hny). rewrite Hr in Hny. inversion Hny; subst y.
  apply load_section_inv in Hy as (v0 & [= <-] & Hts).
  destruct (save_inv _ _ _ Hs) as (b & _ & Hm'). destruct (save_trig_nth _ _ _ _ _ _ Hm' Hr') as (v' & Hv' & Hny').
  exists v'. split; [exact Hny'|]. eapply trig_section_raw_entries_survive; eauto.
Qed.
