(* C10: unmodelled content passes through both layers untouched and in place: whole sections through load and save, and
   one raw trigger entry through decode_entry_of and encode_entry_of. *)
From Coq Require Import String NArith List Bool Lia.
From RC Require Import lib.Result lib.Bytes model.Layout model.Str model.ChkIo model.TrigTable model.RichCodec
  model.RichIo proofs.Entries proofs.Save_shape.
Import ListNotations.
Local Open Scope string_scope.
Local Open Scope list_scope.
Local Open Scope N_scope.

(* what has no rich model: unknown names, STRx and any other string-section that is not "STR ", recognised table
   sections without a rich transcoder other than UPUS (which is recomputed) *)
Definition unmodelled (s : dsection) : bool :=
  match s with
  | DUnknown _ _ => true
  | DStr n _ _ => negb (String.eqb n "STR ")
  | DTab n _ => negb (is_rich_name n) && negb (String.eqb n "UPUS")
  end.

Definition as_rich (s : dsection) : rsection :=
  match s with
  | DUnknown n p => RUnknown n p
  | DStr n w m => RDecodedStr n w m
  | DTab n v => RDecodedTab n v
  end.

Lemma load_section_unmodelled cx s : unmodelled s = true -> load_section cx s = Ok (as_rich s).
Proof.
  destruct s as [n w m|n v|n p]; simpl; intros H; try reflexivity.
  apply andb_true_iff in H as [H _]. rewrite H. reflexivity.
Qed.

Theorem load_passthrough d r i s :
  load d = Ok r -> nth_error d i = Some s -> unmodelled s = true -> nth_error r i = Some (as_rich s).
Proof.
  intros H Hn Hu. destruct (load_nth _ _ _ _ H Hn) as (cx & y & _ & Hy & ->).
  rewrite load_section_unmodelled in Hy by assumption. congruence.
Qed.

Lemma load_length d r : load d = Ok r -> length r = length d.
Proof. intros (cx & _ & Hm)%load_inv. exact (mapM_length _ _ _ Hm). Qed.

Theorem save_passthrough wd r d' i s :
  save wd r = Ok d' -> nth_error r i = Some (as_rich s) -> unmodelled s = true -> nth_error d' i = Some s.
Proof.
  intros H Hn Hu. destruct (save_inv _ _ _ H) as (b & _ & Hm). destruct (save_nth _ _ _ _ _ _ Hm Hn) as (y & Hy & ->). f_equal.
  destruct s as [n w m|n v|n p]; simpl in Hy, Hu.
  - apply negb_true_iff in Hu. rewrite Hu in Hy. inversion Hy; reflexivity.
  - apply andb_true_iff in Hu as [_ Hu]. apply negb_true_iff in Hu. rewrite Hu in Hy. inversion Hy; reflexivity.
  - inversion Hy; reflexivity.
Qed.

Theorem add_triggers_keeps_other_sections new r r' i s :
  add_triggers new r = Ok r' -> nth_error r i = Some s ->
  (forall ts, s <> RTrig ts) -> nth_error r' i = Some s.
Proof.
  intros H Hn Hs. destruct (add_triggers_inv _ _ _ H) as (ts0 & _ & ->). rewrite nth_error_map, Hn. simpl.
  destruct s; try reflexivity. exfalso. eapply Hs; reflexivity.
Qed.

Corollary unmodelled_section_survives d r r' wd d' i s :
  load d = Ok r -> nth_error d i = Some s -> unmodelled s = true ->
  nth_error r' i = nth_error r i ->            (* the edits did not touch position i *)
  save wd r' = Ok d' -> nth_error d' i = Some s.
Proof.
  intros Hl Hn Hu Hsame Hs. eapply save_passthrough; eauto.
  rewrite Hsame. eapply load_passthrough; eauto.
Qed.

Definition entry_val (fields : list string) (vals : list N) : val := mk_struct (combine fields (map VInt vals)).

Lemma vint_mk_struct_notin f fs : ~ In f (map fst fs) -> vint f (mk_struct fs) = 0.
Proof.
  induction fs as [|[g x] fs IH]; intros H; [reflexivity|]. cbn [map fst] in H.
  rewrite vint_skip; [apply IH|]; intros Hc; apply H; [right | left; symmetry]; exact Hc.
Qed.

(* an entry that decode_entry_of keeps raw (type byte outside the enumeration, or inside it without a transcoder:
   transmission, comment, ...) is written back identically, whatever the two lookup contexts are *)
Theorem raw_entry_roundtrip cx cx' table enum idf flagc fields vals :
  NoDup fields -> length vals = length fields ->
  let v := entry_val fields vals in
  enum_has enum (vint idf v) = false \/ vint idf v <> NO_ENTRY /\ find_entry (vint idf v) table = None ->
  exists e, decode_entry_of cx table enum idf flagc fields v = Ok (Some e) /\ encode_entry_of cx' table flagc fields e = Ok v.
Proof.
  intros Hnd Hlen v Hraw. exists (ERaw (val_rec fields v)). split; [apply decode_entry_of_inv; exact (conj eq_refl Hraw)|].
  cbn [encode_entry_of]. unfold v, entry_val. rewrite rec_val_val_rec_id by assumption. reflexivity.
Qed.
