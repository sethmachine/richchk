(* C11, the sizes.  Binary layer: a value of a layout's shape (fits) is written in the layout's size, and a strict array
   refuses any other count.  Rich layer: every trigger the rich encoder builds has the shape of the 2400-byte trigger
   layout, so a TRIG section is a whole number of triggers; the fixed tables are always built with their slot counts. *)
From Coq Require Import String NArith List Bool Lia PeanoNat.
From RC Require Import lib.Result lib.Bytes model.Layout model.TrigTable model.RichCodec
  proofs.Layout_proofs proofs.Entries proofs.Keyed proofs.SlotTable proofs.RichTables gen.GenLayouts gen.GenConsts.
Import ListNotations.
Local Open Scope string_scope.
Local Open Scope list_scope.

(* value v has the shape layout l describes: exactly n elements under Arr n *)
Fixpoint fits (l : layout) (v : val) {struct l} : bool :=
  match l, v with
  | Prim _, VInt _ => true
  | Arr n _ l', VList vs => Nat.eqb (length vs) n && forallb (fits l') vs
  | Seq a b, VPair x y => fits a x && fits b y
  | Named f l', VNamed g x => String.eqb f g && fits l' x
  | Unit, VUnit => true
  | Many l', VList vs => forallb (fits l') vs
  | Chunk _ l', x => fits l' x
  | _, _ => false
  end.

Lemma enc_list_length e s : forall vs bs,
  (forall x b, In x vs -> e x = Ok b -> length b = s) -> enc_list e vs = Ok bs -> length bs = length vs * s.
Proof.
  induction vs as [|x r IH]; intros bs He H; simpl in H.
  - inversion H; reflexivity.
  - inv_bind H as a Ha Hk. inv_bind Hk as b Hb Hk2. inversion Hk2; subst.
    rewrite app_length. rewrite (He x a (or_introl eq_refl) Ha).
    rewrite (IH b); [simpl; lia | intros y c Hy; apply He; right; assumption | assumption].
Qed.

Theorem encode_size l : forall v bs s,
  wf_l l = true -> size_l l = Some s -> fits l v = true -> encode_l l v = Ok bs -> length bs = s.
Proof.
  induction l as [w|n st l IH|a IHa b IHb|f l IH| |l IH|sz l IH]; intros v bs s Hwf Hs Hf H;
    apply encode_l_inv in H; simpl in Hs, Hwf.
  - destruct H as (n & _ & H). inversion Hs; subst. apply pack_ok_inv in H as [_ ->]. apply le_encode_length.
  - destruct H as (vs & -> & _ & H). destruct (size_l l) as [sl|]; inversion Hs.
    apply andb_true_iff in Hf as [Hn Hall]. apply Nat.eqb_eq in Hn. rewrite forallb_forall in Hall.
    rewrite (enc_list_length _ sl _ _ (fun x b Hx => IH x b sl Hwf eq_refl (Hall x Hx)) H), Hn. reflexivity.
  - destruct H as (x & y & p & q & -> & Hp & Hq & ->). apply andb_true_iff in Hwf as [Hwa Hwb], Hf as [Hfa Hfb].
    destruct (size_l a) as [sa|], (size_l b) as [sb|]; inversion Hs.
    rewrite app_length, (IHa _ _ _ Hwa eq_refl Hfa Hp), (IHb _ _ _ Hwb eq_refl Hfb Hq). reflexivity.
  - destruct H as (x & -> & H). apply andb_true_iff in Hf as [_ Hf]. eauto.
  - destruct H as (_ & ->). inversion Hs. reflexivity.
  - discriminate.
  - apply wf_Chunk_inv in Hwf as (Hw & El & _). inversion Hs; subst s. eauto.
Qed.

(* the record of one trigger, and within it the records of one condition and of one action *)
Definition trigger_layout : layout :=
  match dec_TRIG with
  | Seq (Named _ (Many (Chunk _ t))) _ => t
  | _ => Unit
  end.

Definition condition_layout : layout :=
  match trigger_layout with Seq (Named _ (Arr _ _ c)) _ => c | _ => Unit end.

Definition action_layout : layout :=
  match trigger_layout with Seq _ (Seq (Named _ (Arr _ _ a)) _) => a | _ => Unit end.

Lemma trigger_layout_facts : wf_l trigger_layout = true /\ size_l trigger_layout = Some 2400.
Proof. split; vm_compute; reflexivity. Qed.

(* by computation, for an arbitrary r: the shape of rec_val depends on the field list only *)
Lemma rec_val_fits_condition r : fits condition_layout (rec_val condition_record_fields r) = true.
Proof. reflexivity. Qed.

Lemma rec_val_fits_action r : fits action_layout (rec_val action_record_fields r) = true.
Proof. reflexivity. Qed.

Lemma empty_entries_fit :
  fits condition_layout (empty_entry condition_record_fields) = true /\
  fits action_layout (empty_entry action_record_fields) = true.
Proof. split; reflexivity. Qed.

Lemma encode_entry_of_fits cx table flagc fields lay e v :
  (forall r, fits lay (rec_val fields r) = true) ->
  encode_entry_of cx table flagc fields e = Ok v -> fits lay v = true.
Proof. intros Hrec H. destruct (encode_entry_of_rec_val _ _ _ _ _ _ H) as [r ->]. apply Hrec. Qed.

Lemma record_section_size f rec s vs bs :
  wf_l rec = true -> size_l rec = Some s -> Forall (fun x => fits rec x = true) vs ->
  encode_l (Seq (Named f (Many rec)) Unit) (mk_struct [(f, VList vs)]) = Ok bs -> length bs = length vs * s.
Proof.
  intros Hwf Hs Hall H. apply encode_l_inv in H as (x & y & p & q & E & Hp & Hq & ->). inversion E; subst x y.
  apply encode_l_inv in Hq as (_ & ->). apply encode_l_inv in Hp as (x & E' & Hp). inversion E'; subst x.
  rewrite app_nil_r. apply (enc_list_length (encode_l rec) s vs p); [|exact Hp].
  intros x b Hx Hb. rewrite Forall_forall in Hall. eapply encode_size; eauto.
Qed.

Lemma player_ids_27 : length player_ids = 27.
Proof. reflexivity. Qed.

Lemma fits_field f l x rl y : fits (Seq (Named f l) rl) (VPair (VNamed f x) y) = fits l x && fits rl y.
Proof. cbn [fits]. rewrite String.eqb_refl. reflexivity. Qed.

Lemma fits_pad_to n st l e xs :
  length xs <= n -> fits l e = true -> Forall (fun x => fits l x = true) xs ->
  fits (Arr n st l) (VList (pad_to n e xs)) = true.
Proof.
  intros Hn He Hxs. cbn [fits]. rewrite pad_to_length, Nat.eqb_refl by assumption. unfold pad_to.
  rewrite forallb_app, (forallb_of_Forall _ _ Hxs). apply forallb_of_Forall, Forall_forall.
  intros x Hx. apply repeat_spec in Hx. subst. exact He.
Qed.

(* the two entry lists are padded to the 16 conditions and 64 actions of the layout, and the 27 player flags are one per
   member of player_ids *)
Theorem trigger_encode_fits cx t v : trigger_encode cx t = Ok v -> fits trigger_layout v = true.
Proof.
  intros H. apply trigger_encode_val in H as (cs & acts & Hcs & Hacts & Ec & Ea & ->).
  pose proof (mapM_forall _ _ _ _ (fun e v => encode_entry_of_fits cx _ _ _ _ e v rec_val_fits_condition) Hcs) as Fc.
  pose proof (mapM_forall _ _ _ _ (fun e v => encode_entry_of_fits cx _ _ _ _ e v rec_val_fits_action) Hacts) as Fa.
  unfold trigger_layout. cbn [dec_TRIG mk_struct]. rewrite 2 fits_field.
  rewrite (fits_pad_to _ _ _ _ _ Ec (proj1 empty_entries_fit) Fc), (fits_pad_to _ _ _ _ _ Ea (proj2 empty_entries_fit) Fa).
  reflexivity.
Qed.

Theorem trig_section_is_whole_triggers cx ts v bs :
  trig_encode cx ts = Ok v -> encode_l enc_TRIG v = Ok bs -> length bs = length ts * 2400.
Proof.
  intros H He. apply trig_encode_val in H as (vs & Hvs & ->).
  rewrite <- (mapM_length _ _ _ Hvs).
  (* enc_TRIG is, by computation, the one named to-the-end list of 2400-byte chunks holding trigger_layout *)
  apply (record_section_size "_triggers" (Chunk 2400 trigger_layout) 2400 vs bs); [reflexivity | reflexivity | | exact He].
  eapply mapM_forall; [|exact Hvs]. intros t v. apply trigger_encode_fits.
Qed.

Lemma vlist_single f l : vlist f (mk_struct [(f, VList l)]) = l.
Proof. unfold vlist. cbn [mk_struct vfield]. rewrite String.eqb_refl. reflexivity. Qed.

Theorem slot_counts :
  (forall L ls v, mrgn_encode L ls = Ok v -> length (vlist "_locations" v) = N.to_nat MRGN_TRANSCODER_MAX_LOCATIONS) /\
  (forall cs v, uprp_encode cs = Ok v -> length (vlist "_cuwp_slots" v) = N.to_nat MAX_CUWP_SLOTS) /\
  (forall cs v, upus_rebuild cs = Ok v -> length (vlist "_cuwp_slots_used" v) = N.to_nat MAX_CUWP_SLOTS) /\
  (forall L ws v, wav_encode L ws = Ok v -> length (vlist "_wav_string_ids" v) = N.to_nat MAX_WAV_FILES).
Proof.
  repeat split.
  - intros L ls v H. apply mrgn_encode_inv in H as (slots & Hs & ->). rewrite vlist_single.
    apply table_nth in Hs. apply Hs.
  - intros cs v H. apply uprp_encode_inv in H as (_ & slots & Hs & ->). rewrite vlist_single.
    apply table_nth in Hs. apply Hs.
  - intros cs v ->%upus_rebuild_inv. rewrite vlist_single, !map_length. apply seq_length.
  - intros L ws v (ids & Hs & ->)%wav_encode_inv. rewrite vlist_single, map_length. apply mapM_range in Hs. apply Hs.
Qed.

Lemma slot_count_constants :
  (N.to_nat MRGN_TRANSCODER_MAX_LOCATIONS, N.to_nat MAX_CUWP_SLOTS, N.to_nat MAX_WAV_FILES) = (255, 64, 512).
Proof. reflexivity. Qed.

Theorem strict_array_refuses_wrong_count n l vs :
  length vs <> n -> encode_l (Arr n true l) (VList vs) = Raise StructError.
Proof.
  intros H. apply Nat.eqb_neq in H. cbn [encode_l]. rewrite H. reflexivity.
Qed.

(* UPUS, SWNM and WAV have a strict array in their encode layout (as have UNIS and UNIx; UPRP, of records, has not) *)
Theorem fixed_sections_have_strict_counts :
  enc_UPUS = Seq (Named "_cuwp_slots_used" (Arr 64 true (Prim 1))) Unit /\
  enc_SWNM = Seq (Named "_switch_string_ids" (Arr 256 true (Prim 4))) Unit /\
  enc_WAV = Seq (Named "_wav_string_ids" (Arr 512 true (Prim 4))) Unit.
Proof. repeat split; reflexivity. Qed.
