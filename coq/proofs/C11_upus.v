(* C11, "the slot-usage table agrees with the slots in use": for whatever unit-property sets a save ends up with, byte k
   of the emitted UPUS table is 1 exactly when slot k of the emitted UPRP table was written from a unit-property set
   carrying index k+1; where it is 0 that slot is the all-zero record. *)
From Coq Require Import String NArith List Bool Lia PeanoNat.
From RC Require Import lib.Result lib.Bytes model.Layout model.RichCodec proofs.C07_triggers proofs.Keyed
  proofs.SlotTable proofs.RichTables proofs.C11_proofs gen.GenConsts.
Import ListNotations.
Local Open Scope string_scope.
Local Open Scope list_scope.
Local Open Scope N_scope.

Theorem upus_agrees_with_uprp cs us uv k :
  upus_rebuild cs = Ok us -> uprp_encode cs = Ok uv -> (k < N.to_nat MAX_CUWP_SLOTS)%nat ->
  (nth_error (vlist "_cuwp_slots_used" us) k = Some (VInt 1) /\
   exists c slot, assocN_last (N.of_nat k + 1) (cby_idx cs) = Some c /\
                  nth_error (vlist "_cuwp_slots" uv) k = Some slot /\ cuwp_encode c = Ok slot)
  \/
  (nth_error (vlist "_cuwp_slots_used" us) k = Some (VInt 0) /\
   assocN_last (N.of_nat k + 1) (cby_idx cs) = None /\
   nth_error (vlist "_cuwp_slots" uv) k = Some empty_cuwp_val).
Proof.
  intros Hu He Hk. rewrite !cby_idx_keyed. apply upus_rebuild_inv in Hu as ->.
  apply uprp_encode_inv in He as (_ & slots & Hs & ->). destruct (table_nth Hs) as [Hlen Hslot].
  rewrite !vlist_single, nth_error_map, (nth_error_range _ _ Hk). cbn [option_map].
  destruct (nth_error slots k) as [slot|] eqn:En; [|apply nth_error_None in En; lia].
  specialize (Hslot k slot En). unfold slot_of in Hslot.
  (* the usage byte asks whether some set carries the number; the slot asks for the last one that does *)
  destruct (existsb (N.eqb (N.of_nat k + 1)) (map fst (keyed c_idx cs))) eqn:Eu.
  - apply existsb_exists in Eu as (x & Hx & Ex). apply N.eqb_eq in Ex. subst x.
    apply assocN_last_some_iff in Hx as [c Hc]. rewrite Hc in Hslot. left. split; [reflexivity|]. exists c, slot. auto.
  - destruct (assocN_last _ (keyed c_idx cs)) as [c|] eqn:Ec.
    + exfalso. apply not_true_iff_false in Eu. apply Eu. apply existsb_exists. exists (N.of_nat k + 1).
      split; [apply assocN_last_some_iff; eauto | apply N.eqb_refl].
    + right. apply Ok_inj in Hslot as <-. auto.
Qed.
