(* The generated tables are well formed: every flag codec passes [codec_wf], every enum table [enum_wf].  The checks are
   evaluated inside the kernel, the tables being small and closed. *)
From Coq Require Import NArith List Bool String Lia.
From RC Require Import lib.Result model.Flags model.Enums proofs.Flags_proofs proofs.Enums_proofs gen.GenFlags
  gen.GenEnums.
Import ListNotations.
Local Open Scope N_scope.

Lemma action_flags_num x : num_roundtrip action_flags_codec 5 x.
Proof. exact (wf_num_roundtrip action_flags_codec eq_refl x). Qed.
Lemma action_flags_rich : forall bs : list bool, List.length bs = 5%nat -> rich_roundtrip action_flags_codec 5 bs.
Proof. exact (wf_rich_roundtrip action_flags_codec eq_refl). Qed.

Lemma condition_flags_num x : num_roundtrip condition_flags_codec 5 x.
Proof. exact (wf_num_roundtrip condition_flags_codec eq_refl x). Qed.
Lemma condition_flags_rich : forall bs : list bool, List.length bs = 5%nat -> rich_roundtrip condition_flags_codec 5 bs.
Proof. exact (wf_rich_roundtrip condition_flags_codec eq_refl). Qed.

Lemma elevation_flags_num x : num_roundtrip elevation_flags_codec 6 x.
Proof. exact (wf_num_roundtrip elevation_flags_codec eq_refl x). Qed.
Lemma elevation_flags_rich : forall bs : list bool, List.length bs = 6%nat -> rich_roundtrip elevation_flags_codec 6 bs.
Proof. exact (wf_rich_roundtrip elevation_flags_codec eq_refl). Qed.

Lemma cuwp_unit_property_flags_num x : num_roundtrip cuwp_unit_property_flags_codec 6 x.
Proof. exact (wf_num_roundtrip cuwp_unit_property_flags_codec eq_refl x). Qed.
Lemma cuwp_unit_property_flags_rich : forall bs : list bool, List.length bs = 6%nat -> rich_roundtrip cuwp_unit_property_flags_codec 6 bs.
Proof. exact (wf_rich_roundtrip cuwp_unit_property_flags_codec eq_refl). Qed.

Lemma cuwp_valid_special_flags_num x : num_roundtrip cuwp_valid_special_flags_codec 6 x.
Proof. exact (wf_num_roundtrip cuwp_valid_special_flags_codec eq_refl x). Qed.
Lemma cuwp_valid_special_flags_rich : forall bs : list bool, List.length bs = 6%nat -> rich_roundtrip cuwp_valid_special_flags_codec 6 bs.
Proof. exact (wf_rich_roundtrip cuwp_valid_special_flags_codec eq_refl). Qed.

Lemma cuwp_valid_unit_flags_num x : num_roundtrip cuwp_valid_unit_flags_codec 7 x.
Proof. exact (wf_num_roundtrip cuwp_valid_unit_flags_codec eq_refl x). Qed.
Lemma cuwp_valid_unit_flags_rich : forall bs : list bool, List.length bs = 7%nat -> rich_roundtrip cuwp_valid_unit_flags_codec 7 bs.
Proof. exact (wf_rich_roundtrip cuwp_valid_unit_flags_codec eq_refl). Qed.

Lemma all_enums_wf : forallb (fun e => enum_wf (snd e)) all_enums = true.
Proof. vm_compute. reflexivity. Qed.

Lemma all_enums_exact : forall name E, In (name, E) all_enums -> enum_exact E.
Proof.
  intros name E Hin. apply enum_exact_wf.
  pose proof all_enums_wf as H. rewrite forallb_forall in H. apply (H (name, E) Hin).
Qed.

(* non-vacuity: the list of tables is not empty, and a member known from the library is in its table *)
Lemma enums_nonempty : (16 <= List.length all_enums)%nat /\ In (26, "NON_ALLIED_VICTORY_PLAYERS"%string) enum_PlayerId.
Proof. split; [vm_compute; lia | vm_compute; tauto]. Qed.
