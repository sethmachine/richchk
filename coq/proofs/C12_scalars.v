(* C12: hit points (fixed point) and AI-script tags are exact on their whole domain. *)
From Coq Require Import String NArith ZArith List Bool Lia.
From RC Require Import lib.Result lib.Bytes lib.Utf8 model.Scalars gen.GenScalars proofs.Utf8_proofs
  proofs.Utf8_inverse.
Import ListNotations.
Local Open Scope N_scope.

(* 1 / HP_DIVISOR has a finite decimal expansion of 8 places: the Decimal quotient is exact *)
Lemma hp_quotient_exact : hp_scale mod HP_DIVISOR = 0 /\ HP_DIVISOR * (hp_scale / HP_DIVISOR) = hp_scale.
Proof. vm_compute. split; reflexivity. Qed.

Lemma hp_number_to_rich_and_back raw : hp_encode (hp_decode raw) = raw.
Proof.
  unfold hp_encode, hp_decode. change HP_RATE with HP_DIVISOR.
  replace (raw * (hp_scale / HP_DIVISOR) * HP_DIVISOR) with (raw * hp_scale).
  - apply N.div_mul. vm_compute. discriminate.
  - destruct hp_quotient_exact as [_ E].
    rewrite <- N.mul_assoc, (N.mul_comm (hp_scale / HP_DIVISOR)), E. reflexivity.
Qed.

(* a rich value that is a whole number of 1/HP_DIVISOR units (what decode produces; what a caller writes as
   e.g. Decimal("40") or Decimal("12.5")) survives encode then decode *)
Lemma hp_rich_to_number_and_back d : (hp_scale / HP_DIVISOR | d) -> hp_decode (hp_encode d) = d.
Proof.
  intros [k ->]. change (hp_encode (k * (hp_scale / HP_DIVISOR))) with (hp_encode (hp_decode k)).
  rewrite hp_number_to_rich_and_back. reflexivity.
Qed.

(* no rounding: for a u32 raw value the exact quotient, in 10^-8 units, is below 10^28: at most the 28 significant digits
   of the default Decimal context *)
Lemma hp_within_decimal_precision raw : raw < 2 ^ 32 -> hp_decode raw < 10 ^ 28.
Proof.
  intros H. unfold hp_decode.
  assert (hp_scale / HP_DIVISOR = 390625) as -> by (vm_compute; reflexivity).
  assert (2 ^ 32 = 4294967296) as E by reflexivity. rewrite E in H.
  assert (10 ^ 28 = 10000000000000000000000000000) as -> by reflexivity. lia.
Qed.

Lemma hp_injective a b : hp_decode a = hp_decode b -> a = b.
Proof. intros H. rewrite <- (hp_number_to_rich_and_back a), <- (hp_number_to_rich_and_back b), H. reflexivity. Qed.

Lemma list_N_eqb_eq a : forall b, list_N_eqb a b = true -> a = b.
Proof.
  induction a as [|x a IH]; intros [|y b] H; simpl in H; try discriminate; [reflexivity|].
  apply andb_true_iff in H as [H1 H2]. apply N.eqb_eq in H1. f_equal; auto.
Qed.

Lemma index_of_nth x t i : index_of x t = Some i -> nth_error t i = Some x.
Proof.
  revert i; induction t as [|y r IH]; intros i H; simpl in H; [discriminate|].
  destruct (list_N_eqb x y) eqn:E.
  - inversion H; subst. apply list_N_eqb_eq in E. subst. reflexivity.
  - destruct (index_of x r) as [j|] eqn:Ej; simpl in H; [|discriminate]. inversion H; subst. simpl. apply IH. reflexivity.
Qed.

Lemma ai_decode_inv n a : ai_decode n = Ok a <->
  n < 2 ^ 32 /\ exists s, utf8_decode (le_encode 4 n) = Ok s /\
    a = match index_of (le_encode 4 n) gen_ai_tags with Some i => AiKnown i | None => AiUnknown s end.
Proof.
  unfold ai_decode. destruct (N.ltb_spec n (2 ^ 32)) as [Hn|Hn].
  - cbv zeta. split.
    + intros H. inv_bind H as s Hs H. split; [exact Hn|]. exists s. split; [exact Hs|].
      destruct (index_of (le_encode 4 n) gen_ai_tags); inversion H; reflexivity.
    + intros (_ & s & -> & ->). cbn [bind]. destruct (index_of (le_encode 4 n) gen_ai_tags); reflexivity.
  - split; [discriminate | intros [H _]; lia].
Qed.

Lemma ai_encode_inv a n : ai_encode a = Ok n <->
  exists s bs, ai_name_of a = Ok s /\ utf8_encode s = Ok bs /\ length bs = 4%nat /\ n = le_decode bs.
Proof.
  unfold ai_encode. split.
  - intros H. inv_bind H as s Hs H. inv_bind H as bs Hbs H.
    destruct (Nat.eqb_spec (length bs) 4) as [El|_]; [|discriminate]. inversion H. exists s, bs. auto.
  - intros (s & bs & Hs & Hbs & El & ->). rewrite Hs. cbn [bind]. rewrite Hbs. cbn [bind]. rewrite El. reflexivity.
Qed.

Theorem ai_number_to_rich_and_back n a : ai_decode n = Ok a -> ai_encode a = Ok n.
Proof.
  intros H. apply ai_decode_inv in H as (Hn & s & Hs & ->).
  apply ai_encode_inv. exists s, (le_encode 4 n).
  split; [|split; [exact (utf8_decode_encode _ _ _ Hs) | split; [apply le_encode_length | symmetry; apply le_decode_encode, Hn]]].
  destruct (index_of (le_encode 4 n) gen_ai_tags) as [i|] eqn:Ei; [|reflexivity].
  simpl. rewrite (index_of_nth _ _ _ Ei). exact Hs.
Qed.

Theorem ai_rich_to_number_and_back a n :
  ai_encode a = Ok n -> exists a', ai_decode n = Ok a' /\ ai_name_of a' = ai_name_of a.
Proof.
  intros H. apply ai_encode_inv in H as (s & bs & Hs & Hbs & El & ->).
  destruct (utf8_four_bytes _ _ Hbs El) as (Hlt & Hrt & Hdec).
  exists (match index_of bs gen_ai_tags with Some i => AiKnown i | None => AiUnknown s end). split.
  - apply ai_decode_inv. split; [apply N.ltb_lt, Hlt|]. exists s. rewrite Hrt. auto.
  - destruct (index_of bs gen_ai_tags) as [i|] eqn:Ei.
    + unfold ai_name_of at 1. rewrite (index_of_nth _ _ _ Ei), Hdec. symmetry. exact Hs.
    + symmetry. exact Hs.
Qed.

Theorem ai_known_exact_tag n i :
  ai_decode n = Ok (AiKnown i) -> nth_error gen_ai_tags i = Some (le_encode 4 n).
Proof.
  intros H. apply ai_decode_inv in H as (_ & s & _ & H).
  destruct (index_of (le_encode 4 n) gen_ai_tags) as [j|] eqn:Ej; inversion H; subst. apply index_of_nth. exact Ej.
Qed.

Theorem ai_decode_injective n m a : ai_decode n = Ok a -> ai_decode m = Ok a -> n = m.
Proof.
  intros H1 H2. apply ai_number_to_rich_and_back in H1. apply ai_number_to_rich_and_back in H2. congruence.
Qed.

(* the table itself: every known tag is four bytes of valid UTF-8, and decodes to a member carrying that very tag *)
Lemma ai_tags_wellformed :
  forallb (fun t => Nat.eqb (length t) 4 && match utf8_decode t with Ok _ => true | _ => false end) gen_ai_tags = true /\
  forallb (fun t => match ai_decode (le_decode t) with
                    | Ok (AiKnown i) => match nth_error gen_ai_tags i with Some t' => list_N_eqb t t' | None => false end
                    | _ => false end) gen_ai_tags = true /\
  (1 <= length gen_ai_tags)%nat.
Proof. split; [vm_compute; reflexivity|]. split; [vm_compute; reflexivity|]. vm_compute. repeat constructor. Qed.

(* not vacuous: an unknown but valid tag ("Ab1_") and a tag differing from a known one only in letter case
   ("jydg") decode to unknown scripts that keep their own bytes; an invalid UTF-8 tag is refused *)
Example ai_examples :
  ai_decode (le_decode [65; 98; 49; 95]) = Ok (AiUnknown [65; 98; 49; 95]) /\
  ai_decode (le_decode [106; 121; 100; 103]) = Ok (AiUnknown [106; 121; 100; 103]) /\
  ai_decode (le_decode [74; 89; 68; 103]) = Ok (AiKnown 0) /\
  ai_decode (le_decode [255; 65; 66; 67]) = Raise UnicodeError.
Proof. repeat split; vm_compute; reflexivity. Qed.
