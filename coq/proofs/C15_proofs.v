(* C15 / C16: every execution (every fault schedule) of every file-writing entry point, by complete
   enumeration of the non-deterministic semantics inside the kernel. *)
From Coq Require Import String NArith List Bool Lia.
From RC Require Import lib.Result model.IoDsl gen.GenIoDefaults.
Import ListNotations.
Local Open Scope string_scope.

(* the entry points as functions of the overwrite flag, the number of sounds already in the base map (0..3)
   and the number of audio files imported (1..3) *)
Definition entry_points : list (string * (bool -> nat -> nat -> list cmd)) :=
  [("encode_chk_to_file", fun b _ _ => prog_encode_chk_to_file b);
   ("extract_file", fun b _ _ => prog_extract_file b);
   ("extract_chk_from_mpq", fun b _ _ => prog_extract_chk_from_mpq b);
   ("save_chk_to_mpq", fun b ns _ => prog_save_chk_to_mpq b ns);
   ("add_audio_files_to_mpq", fun b ns na => prog_add_audio_files_to_mpq b ns na)].

Definition sound_counts : list nat := [0; 1; 2; 3]%nat.
Definition audio_counts : list nat := [1; 2; 3]%nat.

Fixpoint default_of (n : string) (l : list (string * bool)) : option bool :=
  match l with [] => None | (m, b) :: r => if String.eqb n m then Some b else default_of n r end.

Definition faultfree (rs : list run_result) : option run_result :=
  find (fun r => match fst (fst r) with [] => true | _ => false end) rs.

(* C15a: destination exists, flag not set (the DEFAULT read from the source, and false): every execution fails
   leaving every file as it was; without faults the failure is FileExistsError *)
Definition refuses (prog : list cmd) : bool :=
  let f0 := fs_of true true true in
  let rs := all_runs prog f0 in
  forallb (fun r => let '(tr, o, f) := r in
                    match o with Failed _ => true | Done => false end &&
                    forallb (fun p => unchanged p f0 f) (Base :: Dst :: Audio :: temp_paths)) rs &&
  match faultfree rs with Some (_, Failed FileExists, _) => true | _ => false end.

Definition c15_refuses_all : bool :=
  forallb (fun ep =>
    match default_of (fst ep) gen_overwrite_defaults with
    | Some d =>
        negb d &&
        forallb (fun ns => forallb (fun na => refuses (snd ep d ns na) && refuses (snd ep false ns na)) audio_counts)
                sound_counts
    | None => false
    end) entry_points.

Lemma c15_refuses_all_true : c15_refuses_all = true.
Proof. vm_compute. reflexivity. Qed.

(* C16: save and audio import, destination absent or existing, every fault schedule.  The save without opt-in onto an
   existing destination is left out (dst ||): every execution of it is a refusal, which is C15a above. *)
Definition c16_atomic_all : bool :=
  forallb (fun ns =>
    forallb (fun dst =>
      let f0 := fs_of true dst true in
      forallb (atomic_ok f0) (all_runs (prog_save_chk_to_mpq true ns) f0) &&
      (dst || forallb (atomic_ok f0) (all_runs (prog_save_chk_to_mpq false ns) f0)) &&
      forallb (fun na => forallb (atomic_ok f0) (all_runs (prog_add_audio_files_to_mpq true ns na) f0)) audio_counts)
      [true; false]) sound_counts.

Lemma c16_atomic_all_true : c16_atomic_all = true.
Proof. vm_compute. reflexivity. Qed.

(* C15b: with opt-in, whatever happens (any fault), no file other than the destination is changed or left behind *)
Definition c15_only_dst_all : bool :=
  forallb (fun ep =>
    forallb (fun ns => forallb (fun na =>
      forallb (fun dst =>
        let f0 := fs_of true dst true in
        forallb (only_dst_changes f0) (all_runs (snd ep true ns na) f0)) [true; false]) audio_counts) sound_counts)
    entry_points.

(* In a conversion between one of these two and its own body the kernel is to unfold the constant first: its default
   order reduces the [forallb] on the other side, evaluating every execution, on both sides. *)
Strategy expand [c15_only_dst_all c16_atomic_all].

Lemma atomic_only_dst f0 r : atomic_ok f0 r = true -> only_dst_changes f0 r = true.
Proof.
  destruct r as [[tr o] f]. unfold atomic_ok, only_dst_changes. intros H.
  apply andb_true_iff in H as [H _]. apply andb_true_iff in H as [H _]. exact H.
Qed.

(* For the save and the audio import this is part of what C16 says of the same executions; only the three short
   entry points are enumerated here. *)
Lemma c15_only_dst_all_true : c15_only_dst_all = true.
Proof.
  pose proof c16_atomic_all_true as A. unfold c16_atomic_all in A. rewrite forallb_forall in A.
  apply forallb_forall; intros ep Hep. apply forallb_forall; intros ns Hns.
  apply forallb_forall; intros na Hna. apply forallb_forall; intros dst Hdst.
  specialize (A ns Hns). rewrite forallb_forall in A. specialize (A dst Hdst). cbv zeta in A.
  apply andb_true_iff in A as [A Aaudio]. apply andb_true_iff in A as [Asave _].
  destruct Hep as [<-|[<-|[<-|[<-|[<-|[]]]]]]; cbn [snd]; cbv zeta.
  1-3: destruct dst; vm_compute; reflexivity.
  - apply forallb_forall; intros r Hr. rewrite forallb_forall in Asave. apply atomic_only_dst, Asave, Hr.
  - rewrite forallb_forall in Aaudio. specialize (Aaudio na Hna).
    apply forallb_forall; intros r Hr. rewrite forallb_forall in Aaudio. apply atomic_only_dst, Aaudio, Hr.
Qed.

(* reading a map never changes it and leaves no temp file, under every fault schedule *)
Definition c16_read_all : bool :=
  let f0 := fs_of true false false in
  forallb (fun r => let '(tr, o, f) := r in unchanged Base f0 f && no_temp_left f && unchanged Dst f0 f)
          (all_runs (prog_read_chk_from_mpq Base 0) f0).

Lemma c16_read_all_true : c16_read_all = true.
Proof. vm_compute. reflexivity. Qed.

(* the unrepaired save (destination written by a plain copy) is NOT atomic: the witness is the execution in which
   the final copy fails part-way *)
Lemma unrepaired_save_refuted :
  exists r, In r (all_runs (prog_save_chk_to_mpq_unrepaired true 0) (fs_of true true true)) /\
            atomic_ok (fs_of true true true) r = false.
Proof.
  eexists. split.
  - apply filter_In with (f := fun r => negb (atomic_ok (fs_of true true true) r)).
    vm_compute. left. reflexivity.
  - vm_compute. reflexivity.
Qed.

Lemma execution_counts :
  length (all_runs (prog_save_chk_to_mpq true 3) (fs_of true true true)) = 53%nat /\
  length (all_runs (prog_add_audio_files_to_mpq true 3 3) (fs_of true true true)) = 108%nat.
Proof. vm_compute. split; reflexivity. Qed.
