(* C18: for every module of the package taken as the first import, the model of the import machinery
   loads without error and every registry whose factory module got loaded is complete and duplicate-free. *)
From Coq Require Import NArith List Bool Lia.
From RC Require Import lib.Result lib.Finite model.Imports gen.GenImports proofs.Imports_fast.
Import ListNotations.
Local Open Scope N_scope.

Definition n_modules : N := N.of_nat (length gen_modules).

(* evaluated on the indexed loader of Imports_fast: the model's own [load] scans its lists at every import
   and takes far longer, in coqchk most of all *)
Lemma all_entries_ok_b :
  forall_below n_modules (entry_ok' (index gen_modules) (S (S (length gen_modules)))
                            gen_factory_modules gen_expected_keys) = true.
Proof. vm_compute. reflexivity. Qed.

Lemma all_entries_ok m : m < n_modules ->
  entry_ok gen_modules gen_factory_modules gen_expected_keys m = true.
Proof. rewrite <- entry_ok'_eq. revert m. apply forall_below_spec. exact all_entries_ok_b. Qed.

Definition registry_complete (st : state) (r : N) : Prop :=
  exists fm expk,
    In (r, fm) gen_factory_modules /\ In (r, expk) gen_expected_keys /\
    (In fm (started st) ->
       nodupN (keys_of r st) = true /\ same_set (keys_of r st) expk = true) /\
    (~ In fm (started st) -> keys_of r st = []).

Lemma memN_in k l : memN k l = true <-> In k l.
Proof.
  unfold memN. rewrite existsb_exists. split.
  - intros (x & Hx & He). apply N.eqb_eq in He. subst. assumption.
  - intros H. exists k. split; [assumption | apply N.eqb_refl].
Qed.

Lemma find_some_in {A} (f : A -> bool) l x : find f l = Some x -> In x l /\ f x = true.
Proof. apply find_some. Qed.

Lemma entry_ok_inv mods factories expected m : entry_ok mods factories expected m = true ->
  exists st, load_top mods m = Ok st /\ forall r, In r [0; 1; 2; 3] -> registry_ok factories expected st r = true.
Proof.
  unfold entry_ok. destruct (load_top mods m) as [st|e]; [|discriminate].
  intros H. exists st. split; [reflexivity|]. apply forallb_forall, H.
Qed.

Lemma registry_ok_sound st r :
  registry_ok gen_factory_modules gen_expected_keys st r = true -> registry_complete st r.
Proof.
  unfold registry_ok. intros H.
  destruct (find (fun p => fst p =? r) gen_factory_modules) as [[r1 fm]|] eqn:F1; [|discriminate].
  destruct (find (fun p => fst p =? r) gen_expected_keys) as [[r2 expk]|] eqn:F2; [|discriminate].
  apply find_some in F1 as [I1 E1]. apply find_some in F2 as [I2 E2]. simpl in E1, E2.
  apply N.eqb_eq in E1. apply N.eqb_eq in E2. subst r1 r2.
  exists fm, expk. split; [assumption|]. split; [assumption|]. split.
  - intros Hin. apply memN_in in Hin. rewrite Hin in H. apply andb_true_iff in H. exact H.
  - intros Hnin. destruct (memN fm (started st)) eqn:E; [apply memN_in in E; contradiction|].
    destruct (keys_of r st); [reflexivity | discriminate].
Qed.

Theorem registries_complete_from_any_entry_point m :
  m < n_modules ->
  exists st, load_top gen_modules m = Ok st /\
             forall r, In r [0; 1; 2; 3] -> registry_complete st r.
Proof.
  intros Hm. destruct (entry_ok_inv _ _ _ _ (all_entries_ok m Hm)) as (st & Hl & H).
  exists st. split; [exact Hl|]. intros r Hr. apply registry_ok_sound, H, Hr.
Qed.

(* the sizes of the expected key sets: 10 binary sections, 7 rich sections, 51 actions, 22 conditions *)
Lemma expected_sizes : map (fun e => length (snd e)) gen_expected_keys = [10; 7; 51; 22]%nat.
Proof. vm_compute. reflexivity. Qed.
