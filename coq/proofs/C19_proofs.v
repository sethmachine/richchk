(* C19, the functional half: whatever the binary decoder accepts can be written, and what is written decodes to the very
   same model - for every byte string, no well-formedness assumed.  Termination, the other half, is in C01_proofs. *)
From Coq Require Import String NArith List Bool Lia PeanoNat.
From RC Require Import lib.Result lib.Bytes lib.Tree model.Layout model.Str model.ChkIo proofs.ChkIo_proofs
  gen.GenLayouts.
Import ListNotations.

Lemma size_l_None_erase l : size_l (erase l) = size_l l.
Proof. apply Layout_proofs.size_erase. Qed.

Lemma frame_length name p : length (frame name p) = length name + 4 + length p.
Proof. unfold frame. rewrite !app_length, le_encode_length. lia. Qed.

(* the bound on the length and the quantification over every fuel' are for the induction: what follows a frame is read
   again after a frame that may have become shorter, with whatever fuel is left then *)
Theorem chk_decode_stable_fuel : forall fuel bs secs,
  bytes_ok bs -> chk_decode_fuel fuel bs = Ok secs ->
  exists bs', chk_encode secs = Ok bs' /\ length bs' <= length bs /\
              forall fuel', length bs' < fuel' -> chk_decode_fuel fuel' bs' = Ok secs.
Proof.
  assert (Hnil : forall fuel secs, chk_decode_fuel fuel [] = Ok secs ->
            exists bs', chk_encode secs = Ok bs' /\ length bs' <= 0 /\
                        forall fuel', length bs' < fuel' -> chk_decode_fuel fuel' bs' = Ok secs).
  { intros fuel secs H. rewrite chk_decode_nil in H. inversion H. exists [].
    split; [reflexivity|]. split; [reflexivity|]. intros f _. apply chk_decode_nil. }
  induction fuel as [|fuel IH]; intros [|b0 bs0] secs Hok H;
    [exact (Hnil _ _ H) | discriminate | exact (Hnil _ _ H) |].
  destruct (chk_decode_turn fuel b0 bs0) as [E|(name & szb & body & E & Hn & Hs)].
  - rewrite E in H. discriminate.
  - rewrite E in *. clear E. rewrite chk_decode_step in H by assumption. cbv zeta in H.
    destruct (read_n_split (le_decode szb) body) as [Eb Lp].
    set (p := fst (read_n (le_decode szb) body)) in *. set (r := snd (read_n (le_decode szb) body)) in *.
    inv_bind H as sec Hd H. inv_bind H as secs' Hr H. inversion H; subst secs.
    apply bytes_ok_app_inv in Hok as [_ Hok]. apply bytes_ok_app_inv in Hok as [Hokz Hok].
    rewrite <- Eb in Hok. apply bytes_ok_app_inv in Hok as [Hokp Hokr].
    (* the size field holds a u32, and the payload is no longer than it says *)
    pose proof (le_decode_bound _ Hokz) as Hbd. rewrite Hs, pow256_4 in Hbd.
    assert (Hk : (N.of_nat (length p) < 2 ^ 32)%N) by lia.
    destruct (decode_one_rewrite _ _ _ Hk Hokp Hd) as (p' & r0 & Ep & Eenc & Ddec & _).
    destruct (IH _ _ Hokr Hr) as (bs2 & Eenc2 & L2 & D2).
    rewrite Ep, app_length in Hk. rewrite <- Eb, Ep.
    exists (frame name p' ++ bs2). rewrite !app_length, frame_length, Hn, Hs. split; [|split; [lia|]].
    + cbn [chk_encode]. rewrite Eenc, Eenc2. reflexivity.
    + intros [|f'] Hf; [lia|]. rewrite chk_decode_frame, Ddec, D2 by lia. reflexivity.
Qed.

Theorem chk_decode_stable bs secs :
  bytes_ok bs -> chk_decode bs = Ok secs ->
  exists bs', chk_encode secs = Ok bs' /\ chk_decode bs' = Ok secs.
Proof.
  intros Hok H. destruct (chk_decode_stable_fuel _ _ _ Hok H) as (bs' & E & L & D).
  exists bs'. split; [exact E|]. unfold chk_decode. apply D. lia.
Qed.

(* not vacuous: an input that is NOT well formed (a UPUS section 4 bytes too long, then a truncated unknown
   section whose size field promises 100 bytes) decodes, and what is written back differs from it *)
Definition ragged_chk : bytes :=
  (frame (codes_of_string "UPUS") (repeat 1 64 ++ [9; 9; 9; 9]) ++
   [81; 81; 81; 81; 100; 0; 0; 0; 1; 2; 3])%N.

Example ragged_chk_is_accepted_and_rewritten :
  exists secs bs', chk_decode ragged_chk = Ok secs /\ chk_encode secs = Ok bs' /\ bs' <> ragged_chk /\
                   chk_decode bs' = Ok secs.
Proof.
  eexists. eexists. split; [vm_compute; reflexivity|]. split; [vm_compute; reflexivity|].
  split; [intros Heq; apply (f_equal (@length N)) in Heq; vm_compute in Heq; discriminate|].
  vm_compute. reflexivity.
Qed.
