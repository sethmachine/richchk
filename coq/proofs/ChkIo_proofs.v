(* The CHK chunk loop: one section decoded and written back, for any payload the decoder accepts, and the round trip on
   every well-formed CHK.  The definitions at the head are those the statements of props/C01.v mention. *)
From Coq Require Import String NArith List Bool Lia PeanoNat.
From RC Require Import lib.Result lib.Bytes lib.Tree model.Layout model.Str model.ChkIo proofs.Layout_proofs
  proofs.Str_proofs gen.GenLayouts.
Import ListNotations.
Local Open Scope N_scope.

Definition kind_ok (k : kind) : bool :=
  match k with
  | KStr w => Nat.eqb w 2 || Nat.eqb w 4
  | KTab d e => layout_eqb (erase e) d && wf_l e
  end.

Definition table_ok (t : list (string * kind)) : bool :=
  forallb (fun e => kind_ok (snd e) && Nat.eqb (length (codes_of_string (fst e))) 4) t.

(* the layout's decoder leaves nothing over.  A dataclass is a chain of Seq ending in Unit, so Seq a Unit is a last
   field: the record sections are Seq (Named f (Many record)) Unit *)
Fixpoint consumes_all (l : layout) : bool :=
  match l with
  | Many _ => true
  | Named _ l' => consumes_all l'
  | Seq a Unit => consumes_all a
  | _ => false
  end.

(* "a size StarCraft accepts": fixed-size sections have exactly their size;
   record sections (MRGN, TRIG) are whatever the record loop consumes completely *)
Definition legal_payload (name payload : bytes) : Prop :=
  match lookup_name name section_table with
  | Some (_, KTab dec _) => consumes_all dec = true \/ size_l dec = Some (length payload)
  | _ => True
  end.

Inductive wf_chk : bytes -> Prop :=
| wf_chk_nil : wf_chk []
| wf_chk_cons name payload rest :
    length name = 4%nat -> N.of_nat (length payload) < 2 ^ 32 ->
    legal_payload name payload -> wf_chk rest ->
    wf_chk (frame name payload ++ rest).

Lemma wf_erase l : wf_l (erase l) = wf_l l.
Proof.
  induction l as [w|n st l IH|a IHa b IHb|f l IH| |l IH|sz l IH]; simpl; try reflexivity.
  - exact IH.
  - rewrite IHa, IHb. reflexivity.
  - exact IH.
  - rewrite IH, size_erase. reflexivity.
  - rewrite IH, size_erase. reflexivity.
Qed.

Lemma bytes_eqb_eq a : forall b, bytes_eqb a b = true -> a = b.
Proof.
  induction a as [|x a IH]; intros [|y b] H; simpl in H; try discriminate; [reflexivity|].
  apply andb_true_iff in H as [H1 H2]. apply N.eqb_eq in H1. subst. f_equal. apply IH. assumption.
Qed.

Lemma bytes_eqb_refl a : bytes_eqb a a = true.
Proof. induction a as [|x a IH]; simpl; [reflexivity|]. rewrite N.eqb_refl, IH. reflexivity. Qed.

Lemma lookup_name_in name t s k :
  lookup_name name t = Some (s, k) -> In (s, k) t /\ name = codes_of_string s.
Proof.
  induction t as [|[s' k'] r IH]; simpl; intros H; [discriminate|].
  destruct (bytes_eqb name (codes_of_string s')) eqn:E.
  - inversion H; subst. split; [left; reflexivity | apply bytes_eqb_eq; assumption].
  - destruct (IH H) as [Hin Hn]. split; [right; assumption | assumption].
Qed.

Lemma lookup_name_str name t s k :
  lookup_name name t = Some (s, k) -> lookup_str s t = Some k.
Proof.
  induction t as [|[s' k'] r IH]; simpl; intros H; [discriminate|].
  destruct (bytes_eqb name (codes_of_string s')) eqn:E.
  - inversion H; subst. rewrite String.eqb_refl. reflexivity.
  - destruct (String.eqb_spec s s') as [->|Hne]; [|apply IH; assumption].
    exfalso. destruct (lookup_name_in _ _ _ _ H) as [_ Hn]. subst name.
    rewrite bytes_eqb_refl in E. discriminate.
Qed.

Lemma table_ok_in t s k : table_ok t = true -> In (s, k) t ->
  kind_ok k = true /\ length (codes_of_string s) = 4%nat.
Proof.
  unfold table_ok. rewrite forallb_forall. intros H Hin. specialize (H _ Hin). simpl in H.
  apply andb_true_iff in H as [H1 H2]. apply Nat.eqb_eq in H2. auto.
Qed.

Lemma consumes_all_rest l : forall fuel bs v r,
  consumes_all l = true -> decode_l fuel l bs = Ok (v, r) -> r = [].
Proof.
  induction l as [w|n st l IH|a IHa b IHb|f l IH| |l IH|sz l IH]; intros fuel bs v r Hc H;
    apply decode_l_inv in H; simpl in Hc; try discriminate.
  - destruct b; try discriminate. destruct H as (va & ra & vb & Ha & Hb & _).
    apply decode_l_inv in Hb as (_ & <-). eauto.
  - destruct H as (x & H & _). eauto.
  - destruct H as (vs & _ & _ & H). exact H.
Qed.

Lemma section_table_ok : table_ok section_table = true.
Proof. vm_compute. reflexivity. Qed.

Lemma pow256_4 : pow256 4 = 2 ^ 32.
Proof. reflexivity. Qed.

Lemma read_n_split n bs : fst (read_n n bs) ++ snd (read_n n bs) = bs /\ N.of_nat (length (fst (read_n n bs))) <= n.
Proof. unfold read_n. simpl. rewrite firstn_skipn, firstn_length. split; [reflexivity | lia]. Qed.

Lemma read_n_exact (p rest : bytes) : read_n (N.of_nat (length p)) (p ++ rest) = (p, rest).
Proof.
  unfold read_n. rewrite app_length, Nat2N.inj_add, N.min_l, Nat2N.id by lia.
  rewrite firstn_app_exact, skipn_app_exact by reflexivity. reflexivity.
Qed.

Lemma encode_framed name d : N.of_nat (length d) < 2 ^ 32 ->
  (do h <- header name (length d); Ok (h ++ d)) = Ok (frame name d).
Proof.
  intros H. unfold header, frame. rewrite pack_fits by (rewrite pow256_4; exact H). simpl.
  rewrite <- app_assoc. reflexivity.
Qed.

(* decode_one by the row of the section table its name finds *)
Lemma decode_one_eq name :
  match lookup_name name section_table with
  | Some (s, KStr w) =>
      name = codes_of_string s /\ forall p, decode_one name p = (do m <- str_decode w p; Ok (DStr s w m))
  | Some (s, KTab dec enc) =>
      name = codes_of_string s /\ dec = erase enc /\ wf_l enc = true /\
      forall p, decode_one name p = (do vr <- decode_l (S (length p)) enc p; Ok (DTab s (fst vr)))
  | None => forall p, decode_one name p = Ok (DUnknown name p)
  end.
Proof.
  unfold decode_one. destruct (lookup_name name section_table) as [[s [w|dec enc]]|] eqn:El; [| |reflexivity];
    destruct (lookup_name_in _ _ _ _ El) as [Hin Hn].
  - split; [exact Hn | reflexivity].
  - destruct (table_ok_in _ _ _ section_table_ok Hin) as [Hk _]. apply andb_true_iff in Hk as [He Hwf].
    apply layout_eqb_eq in He. subst dec. refine (conj Hn (conj eq_refl (conj Hwf _))).
    intros p. unfold decode_section. rewrite decode_erase. destruct (decode_l _ enc p); reflexivity.
Qed.

(* one section, any payload the decoder accepts: it is written as the part of the payload that was read, which decodes
   to the same section; a legal payload was read whole *)
Lemma decode_one_rewrite name payload sec :
  N.of_nat (length payload) < 2 ^ 32 -> bytes_ok payload -> decode_one name payload = Ok sec ->
  exists pre rest, payload = pre ++ rest /\ encode_one sec = Ok (frame name pre) /\ decode_one name pre = Ok sec /\
                   (legal_payload name payload -> rest = []).
Proof.
  intros Hlen Hok H. pose proof (decode_one_eq name) as E. unfold legal_payload.
  destruct (lookup_name name section_table) as [[s [w|dec enc]]|] eqn:El.
  - destruct E as [-> E]. rewrite E in H. inv_bind H as m Hd H. inversion H; subst sec.
    exists payload, []. rewrite app_nil_r, E, Hd. split; [reflexivity|]. split; [|auto].
    simpl. rewrite (str_roundtrip _ _ _ Hok Hd). apply encode_framed, Hlen.
  - destruct E as (-> & -> & Hwf & E). rewrite E in H. inv_bind H as vr Hd H. destruct vr as [v r]. inversion H; subst sec.
    destruct (layout_roundtrip_prefix _ _ _ _ _ Hok Hwf Hd) as (pre & -> & Ee & Hpre).
    rewrite app_length, Nat2N.inj_add in Hlen.
    exists pre, r. split; [reflexivity|]. split; [|split].
    + cbn [encode_one]. rewrite (lookup_name_str _ _ _ _ El), Ee. apply encode_framed. lia.
    + rewrite E, (decode_fuel_enough _ _ (S (length pre)) _ _ Hwf (Nat.lt_succ_diag_r _) Hpre). reflexivity.
    + intros [Hc|Hs].
      * rewrite <- decode_erase in Hd. eapply consumes_all_rest; eauto.
      * rewrite size_erase in Hs. apply (decode_size _ _ _ _ _ _ Hwf Hs) in Hd. destruct r; [reflexivity | simpl in Hd; lia].
  - rewrite E in H. inversion H; subst sec. exists payload, []. rewrite app_nil_r, E.
    split; [reflexivity|]. split; [apply encode_framed, Hlen | auto].
Qed.

Lemma chk_decode_nil fuel : chk_decode_fuel fuel [] = Ok [].
Proof. destruct fuel; reflexivity. Qed.

Lemma chk_decode_short fuel bs : bs <> [] -> (length bs < 8)%nat -> chk_decode_fuel (S fuel) bs = Raise StructError.
Proof.
  intros Hne Hl. destruct bs as [|b0 bs0]; [contradiction|].
  (* the loop matches on its input: on a cons cbn reduces the match; then the input is folded into a name again *)
  cbn [chk_decode_fuel]. set (bs := b0 :: bs0) in *.
  destruct (Nat.ltb (length bs) 4) eqn:E4; [reflexivity|]. apply Nat.ltb_ge in E4.
  rewrite unpack_short by (rewrite skipn_length; lia). reflexivity.
Qed.

Lemma chk_decode_step fuel name szb body : length name = 4%nat -> length szb = 4%nat ->
  chk_decode_fuel (S fuel) (name ++ szb ++ body) =
  (let pr := read_n (le_decode szb) body in
   do sec <- decode_one name (fst pr); do secs <- chk_decode_fuel fuel (snd pr); Ok (sec :: secs)).
Proof.
  intros Hn Hs. destruct name as [|n0 name']; [discriminate|].
  (* as in chk_decode_short: show a cons, reduce, fold back *)
  change ((n0 :: name') ++ szb ++ body) with (n0 :: (name' ++ szb ++ body)). cbn [chk_decode_fuel].
  change (n0 :: (name' ++ szb ++ body)) with ((n0 :: name') ++ szb ++ body).
  rewrite (proj2 (Nat.ltb_ge _ _)) by (rewrite app_length; lia).
  rewrite firstn_app_exact, skipn_app_exact, unpack_app by assumption. reflexivity.
Qed.

(* a non-empty input is refused for want of a whole header, or is a header and what follows *)
Lemma chk_decode_turn fuel b0 bs0 :
  chk_decode_fuel (S fuel) (b0 :: bs0) = Raise StructError \/
  exists name szb body, b0 :: bs0 = name ++ szb ++ body /\ length name = 4%nat /\ length szb = 4%nat.
Proof.
  set (bs := b0 :: bs0). destruct (Nat.lt_ge_cases (length bs) 8) as [Hl|Hl].
  - left. apply chk_decode_short; [discriminate | assumption].
  - right. exists (firstn 4 bs), (firstn 4 (skipn 4 bs)), (skipn 4 (skipn 4 bs)).
    rewrite !firstn_skipn, !firstn_length, skipn_length. repeat split; lia.
Qed.

Lemma chk_decode_frame fuel name payload rest :
  length name = 4%nat -> N.of_nat (length payload) < 2 ^ 32 ->
  chk_decode_fuel (S fuel) (frame name payload ++ rest) =
  (do sec <- decode_one name payload; do secs <- chk_decode_fuel fuel rest; Ok (sec :: secs)).
Proof.
  intros Hn Hlen. unfold frame. rewrite <- !app_assoc, chk_decode_step by auto using le_encode_length.
  rewrite le_decode_encode, read_n_exact by (rewrite pow256_4; exact Hlen). reflexivity.
Qed.

Theorem chk_roundtrip_wf bs : wf_chk bs -> bytes_ok bs ->
  forall fuel secs, chk_decode_fuel fuel bs = Ok secs -> chk_encode secs = Ok bs.
Proof.
  induction 1 as [|name payload rest Hn Hlen Hlegal Hwf IH]; intros Hok fuel secs H.
  - rewrite chk_decode_nil in H. inversion H. reflexivity.
  - destruct fuel as [|fuel].
    { (* the name has four bytes, so the input is not empty: without fuel the loop reports OutOfFuel *)
      destruct name; [discriminate Hn | discriminate H]. }
    rewrite chk_decode_frame in H by assumption.
    inv_bind H as sec Hd H. inv_bind H as secs' Hr H. inversion H; subst secs.
    apply bytes_ok_app_inv in Hok as [Hokf Hokr]. unfold frame in Hokf.
    apply bytes_ok_app_inv in Hokf as [_ Hokp]. apply bytes_ok_app_inv in Hokp as [_ Hokp].
    destruct (decode_one_rewrite _ _ _ Hlen Hokp Hd) as (pre & r & -> & E & _ & Hr0).
    rewrite (Hr0 Hlegal), app_nil_r in *. simpl. rewrite E, (IH Hokr _ _ Hr). reflexivity.
Qed.
