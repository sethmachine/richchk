(* One trigger entry (a 32-byte action or 20-byte condition record) through the rich entry codec: what encode_entry_of
   writes into each field under the specification entry, what decode_entry_of makes of a record value; generic in the
   tables, the record fields and the flag codec (the table interpreter beneath is C05_proofs).  At the end, a trigger and
   a TRIG section, inverted. *)
From Coq Require Import String NArith List Bool Lia.
From RC Require Import lib.Result model.Layout model.Flags model.TrigTable model.RichCodec proofs.C05_proofs
  gen.GenTrig gen.GenFlags gen.GenConsts.
Import ListNotations.
Local Open Scope string_scope.
Local Open Scope list_scope.
Local Open Scope N_scope.

Lemma vfield_head f x rest : vfield f (mk_struct ((f, x) :: rest)) = Some x.
Proof. cbn [mk_struct vfield]. rewrite String.eqb_refl. reflexivity. Qed.

Lemma vfield_skip f g x rest : f <> g -> vfield f (mk_struct ((g, x) :: rest)) = vfield f (mk_struct rest).
Proof. intros H%String.eqb_neq. cbn [mk_struct vfield]. rewrite H. reflexivity. Qed.

Lemma vint_head f n rest : vint f (mk_struct ((f, VInt n) :: rest)) = n.
Proof. unfold vint. rewrite vfield_head. reflexivity. Qed.

Lemma vint_skip f g x rest : f <> g -> vint f (mk_struct ((g, x) :: rest)) = vint f (mk_struct rest).
Proof. intros H. unfold vint. rewrite (vfield_skip _ _ _ _ H). reflexivity. Qed.

(* rec_val, val_rec and empty_entry tabulate a function over the field list *)
Lemma vint_tabulate (h : string -> N) fields f :
  In f fields -> vint f (mk_struct (map (fun g => (g, VInt (h g))) fields)) = h f.
Proof.
  induction fields as [|g fs IH]; intros Hin; [destruct Hin|]. cbn [map].
  destruct (String.eqb_spec f g) as [->|Hne]; [apply vint_head|].
  rewrite vint_skip by exact Hne. destruct Hin as [->|Hin]; [contradiction | exact (IH Hin)].
Qed.

Lemma vint_rec_val fields r f :
  In f fields -> vint f (rec_val fields r) = match rec_get f r with Ok n => n | Raise _ => 0 end.
Proof. exact (vint_tabulate (fun f => match rec_get f r with Ok n => n | Raise _ => 0 end) fields f). Qed.

Lemma vint_empty_entry fields f : In f fields -> vint f (empty_entry fields) = 0.
Proof. exact (vint_tabulate (fun _ => 0) fields f). Qed.

Lemma rec_get_val_rec fields v f : In f fields -> rec_get f (val_rec fields v) = Ok (vint f v).
Proof.
  unfold val_rec. induction fields as [|g fs IH]; intros Hin; [destruct Hin|]. simpl.
  destruct (String.eqb_spec f g) as [->|Hne]; [reflexivity|]. destruct Hin as [->|Hin]; [contradiction | auto].
Qed.

Lemma rec_val_val_rec_tabulate fields v :
  rec_val fields (val_rec fields v) = mk_struct (map (fun f => (f, VInt (vint f v))) fields).
Proof.
  unfold rec_val. f_equal. apply map_ext_in. intros f Hf. rewrite rec_get_val_rec by assumption. reflexivity.
Qed.

(* a record value with exactly the fields, in order (C10_proofs.entry_val), is its own re-reading: the head field reads
   itself, NoDup makes every later field skip it *)
Lemma rec_val_val_rec_id fields : NoDup fields -> forall vals, length vals = length fields ->
  rec_val fields (val_rec fields (mk_struct (combine fields (map VInt vals)))) = mk_struct (combine fields (map VInt vals)).
Proof.
  intros Hnd vals Hlen. rewrite rec_val_val_rec_tabulate. f_equal. revert vals Hlen.
  induction Hnd as [|f fs Hnotin Hnd IH]; intros [|x vals] Hlen; try discriminate; [reflexivity|].
  cbn [map combine]. rewrite vint_head. f_equal. etransitivity; [|apply (IH vals); simpl in Hlen; lia].
  apply map_ext_in. intros g Hg. rewrite vint_skip; [reflexivity|]. intros ->. contradiction.
Qed.

Lemma rec_val_eq fields r1 r2 :
  (forall f, In f fields -> vint f (rec_val fields r1) = vint f (rec_val fields r2)) -> rec_val fields r1 = rec_val fields r2.
Proof.
  intros H. unfold rec_val. f_equal. apply map_ext_in. intros f Hf. specialize (H f Hf).
  rewrite !vint_rec_val in H by assumption. rewrite H. reflexivity.
Qed.

Lemma arg_get_in {rval} a (args : list (string * rval)) x : arg_get rval a args = Ok x -> In (a, x) args.
Proof.
  induction args as [|[b v] r IH]; simpl; intros H; [discriminate|].
  destruct (String.eqb_spec a b) as [->|Hne]; [inversion H; subst; left; reflexivity | right; apply IH; assumption].
Qed.

Lemma find_entry_in k t e : find_entry k t = Some e -> In e t /\ te_key e = k.
Proof.
  induction t as [|x t IH]; simpl; intros H; [discriminate|].
  destruct (te_key x =? k) eqn:E.
  - inversion H; subst. apply N.eqb_eq in E. auto.
  - destruct (IH H) as [Hin Hk]. auto.
Qed.

(* the one post-processing step of encode_entry_of: the flags field is overwritten *)
Definition with_flags (x : N) (r : record) : record :=
  map (fun p : string * N => if String.eqb (fst p) "_flags" then (fst p, x) else p) r.

Lemma rec_get_with_flags f x r :
  rec_get f (with_flags x r) = if String.eqb f "_flags" then (do _ <- rec_get f r; Ok x) else rec_get f r.
Proof.
  induction r as [|[g v] r IH]; simpl; [destruct (String.eqb f "_flags"); reflexivity|].
  destruct (String.eqb_spec g "_flags") as [->|Hg]; simpl; rewrite IH.
  - destruct (String.eqb f "_flags"); reflexivity.
  - destruct (String.eqb_spec f "_flags") as [->|Hf]; [|reflexivity].
    destruct (String.eqb_spec "_flags" g) as [<-|_]; [contradiction | reflexivity].
Qed.

Lemma encode_entry_of_rich cx table flagc fields key args fl v :
  encode_entry_of cx table flagc fields (ERich key args fl) = Ok v ->
  exists te r fx, find_entry key table = Some te /\
    encode_entry rarg (enc_arg cx) (wav_duration cx) te args = Ok r /\ flags_to flagc fl = Ok fx /\
    v = rec_val fields (with_flags fx r).
Proof.
  cbn [encode_entry_of]. destruct (find_entry key table) as [te|]; [|discriminate]. intros H.
  inv_bind H as r Hr Hk. inv_bind Hk as fx Hfx Hk2. inversion Hk2. exists te, r, fx. auto.
Qed.

Lemma encode_entry_of_rec_val cx table flagc fields e v :
  encode_entry_of cx table flagc fields e = Ok v -> exists r, v = rec_val fields r.
Proof.
  destruct e as [r|key args fl]; [intros [= <-]; eauto|].
  intros (_ & r & fx & _ & _ & _ & ->)%encode_entry_of_rich. eauto.
Qed.

(* the three outcomes: dropped (the empty type), kept raw (type byte outside the enumeration, or inside it without a
   transcoder), decoded by the transcoder registered for its type byte *)
Lemma decode_entry_of_inv cx table enum idf flagc fields v o :
  decode_entry_of cx table enum idf flagc fields v = Ok o <->
  match o with
  | None => enum_has enum (vint idf v) = true /\ vint idf v = NO_ENTRY
  | Some (ERaw r) =>
      r = val_rec fields v /\
      (enum_has enum (vint idf v) = false \/ vint idf v <> NO_ENTRY /\ find_entry (vint idf v) table = None)
  | Some (ERich key args fl) =>
      key = vint idf v /\ enum_has enum key = true /\ key <> NO_ENTRY /\
      exists te, find_entry key table = Some te /\
        decode_entry rarg (dec_arg cx) te (val_rec fields v) = Ok args /\ flags_of flagc (vint "_flags" v) = Ok fl
  end.
Proof.
  unfold decode_entry_of. split.
  - destruct (enum_has enum (vint idf v)) eqn:En; cbn [negb]; [|intros [= <-]; auto].
    destruct (N.eqb_spec (vint idf v) NO_ENTRY) as [E0|E0]; [intros [= <-]; auto|].
    destruct (find_entry (vint idf v) table) as [te|] eqn:Hf; [|intros [= <-]; auto].
    intros H. inv_bind H as args Ha Hk. inv_bind Hk as fl Hfl Hk2. inversion Hk2; subst o.
    split; [reflexivity|]. split; [exact En|]. split; [exact E0|]. exists te. auto.
  - destruct o as [[r|key args fl]|].
    + intros [-> [->|[E0%N.eqb_neq ->]]]; [reflexivity|]. rewrite E0. destruct (enum_has enum (vint idf v)); reflexivity.
    + intros (-> & En & E0%N.eqb_neq & te & Hf & Ha & Hfl). rewrite En, E0, Hf, Ha. cbn [negb bind]. rewrite Hfl. reflexivity.
    + intros [En E0]. rewrite En, E0. reflexivity.
Qed.

Lemma wav_duration_inv cx args d : wav_duration cx args = Ok d ->
  arg_get rarg "_duration_ms" args = Ok (AInt d) \/ arg_get rarg "_duration_ms" args = Ok ANone.
Proof.
  unfold wav_duration. destruct (arg_get rarg "_duration_ms" args) as [[| | | | | | | |]|]; try discriminate; [|auto].
  intros [= ->]. auto.
Qed.

Section Written.
  Variable table : list trig_entry.
  Variable spec : list spec_entry.
  Variable fields : list string.
  Variable flagc : flag_codec.
  Hypothesis Hmatch : tables_match fields table spec = true.

  (* every field but the flags holds the value of the source the SPECIFICATION names for it; the flags field, the encoded
     flags *)
  Theorem written_fields cx key args fl v :
    encode_entry_of cx table flagc fields (ERich key args fl) = Ok v ->
    exists te s fx, find_entry key table = Some te /\ In s spec /\ se_id s = key /\ matched fields te s /\
      flags_to flagc fl = Ok fx /\ (exists r, v = rec_val fields r) /\
      forall f, In f fields ->
        if String.eqb f "_flags" then vint f v = fx
        else src_val rarg (enc_arg cx) (wav_duration cx) key args (expected_src s f) = Ok (vint f v).
  Proof.
    intros H. destruct (encode_entry_of_rich _ _ _ _ _ _ _ _ H) as (te & r & fx & Hf & Hr & Hfx & ->).
    destruct (find_entry_in _ _ _ Hf) as [Hte Htk].
    destruct (tables_match_in _ _ _ _ Hmatch Hte) as (s & Hs & M%entry_matches_spec).
    assert (se_id s = key) as Hkey by (rewrite <- Htk; symmetry; exact (m_key M)).
    exists te, s, fx. split; [exact Hf|]. split; [exact Hs|]. split; [exact Hkey|]. split; [exact M|].
    split; [exact Hfx|]. split; [exists (with_flags fx r); reflexivity|]. intros f Hin.
    destruct (matched_entry_field rarg (enc_arg cx) (wav_duration cx) _ _ _ _ _ _ M Hr Hin) as (n & Hn & Hg).
    rewrite vint_rec_val, rec_get_with_flags, Hg by assumption. rewrite Hkey in Hn.
    destruct (String.eqb f "_flags"); [reflexivity | exact Hn].
  Qed.

  (* so the type field holds the type's own number, when the specification says it does *)
  Corollary written_id_field cx key args fl v idf :
    encode_entry_of cx table flagc fields (ERich key args fl) = Ok v ->
    In idf fields -> idf <> "_flags" -> (forall s, In s spec -> expected_src s idf = EOwnId) -> vint idf v = key.
  Proof.
    intros H Hi Hne%String.eqb_neq Hown. destruct (written_fields _ _ _ _ _ H) as (te & s & fx & Hf & Hs & Hkey & M & Hfx & Hr & Hw).
    specialize (Hw idf Hi). rewrite Hne, (Hown s Hs) in Hw. cbn [src_val] in Hw. congruence.
  Qed.
End Written.

Lemma record_fields_nodup : NoDup action_record_fields /\ NoDup condition_record_fields.
Proof. split; apply nodup_strs_spec; vm_compute; reflexivity. Qed.

Lemma action_id_field : In "_action_id" action_record_fields /\ "_action_id" <> "_flags".
Proof. split; [simpl; tauto | discriminate]. Qed.
Lemma condition_id_field : In "_condition_id" condition_record_fields /\ "_condition_id" <> "_flags".
Proof. split; [simpl; tauto | discriminate]. Qed.
Lemma action_flags_field : In "_flags" action_record_fields.
Proof. simpl; tauto. Qed.
Lemma condition_flags_field : In "_flags" condition_record_fields.
Proof. simpl; tauto. Qed.

Lemma pad_to_length {A} n (x : A) l : (length l <= n)%nat -> length (pad_to n x l) = n.
Proof. intros H. unfold pad_to. rewrite app_length, repeat_length. lia. Qed.

Lemma pad_to_nth {A} n (x : A) l k y : nth_error l k = Some y -> nth_error (pad_to n x l) k = Some y.
Proof. intros H. unfold pad_to. rewrite nth_error_app1; [exact H|]. apply nth_error_Some. congruence. Qed.

Lemma pad_to_nth_pad {A} n (x : A) l k : (length l <= k < n)%nat -> nth_error (pad_to n x l) k = Some x.
Proof. intros H. unfold pad_to. rewrite nth_error_app2 by lia. apply nth_error_repeat. lia. Qed.

Lemma somes_in {A} (l : list (option A)) x : In x (somes l) -> In (Some x) l.
Proof.
  induction l as [|[y|] l IH]; simpl; intros H; [destruct H | destruct H as [->|H]; auto | auto].
Qed.

Lemma somes_nth_prefix {A} : forall (os : list (option A)) k e,
  (forall j, (j < k)%nat -> nth_error os j <> Some None) -> nth_error os k = Some (Some e) -> nth_error (somes os) k = Some e.
Proof.
  induction os as [|o r IH]; intros k e Hp Hn; [destruct k; discriminate|].
  destruct k as [|k]; simpl in Hn; [inversion Hn; reflexivity|].
  destruct o as [x|]; [|destruct (Hp 0%nat ltac:(lia) eq_refl)].
  simpl. apply IH; [|exact Hn]. intros j Hj. apply (Hp (S j)). lia.
Qed.

(* the players and the three checks on the execution record are left out *)
Lemma trigger_decode_inv cx v t :
  trigger_decode cx v = Ok t ->
  exists cs acts,
    mapM (decode_entry_of cx gen_condition_table "TriggerConditionId" "_condition_id" condition_flags_codec
            condition_record_fields) (vlist "_conditions" v) = Ok cs /\
    mapM (decode_entry_of cx gen_action_table "TriggerActionId" "_action_id" action_flags_codec
            action_record_fields) (vlist "_actions" v) = Ok acts /\
    t_conds t = somes cs /\ t_acts t = somes acts.
Proof.
  unfold trigger_decode. intros H. inv_bind H as cs Hcs Hk. inv_bind Hk as acts Hacts Hk2.
  destruct (vfield "_player_execution" v) as [pe|]; [|discriminate].
  destruct (negb (vint "_execution_flags" pe =? 0)); [discriminate|].
  destruct (negb (vint "_current_action_index" pe =? 0)); [discriminate|].
  destruct (existsb _ _); [discriminate|]. inversion Hk2; subst t. exists cs, acts. auto.
Qed.

Lemma trigger_encode_val cx t v : trigger_encode cx t = Ok v ->
  exists cs acts,
    mapM (encode_entry_of cx gen_condition_table condition_flags_codec condition_record_fields) (t_conds t)
      = Ok cs /\
    mapM (encode_entry_of cx gen_action_table action_flags_codec action_record_fields) (t_acts t)
      = Ok acts /\
    (length cs <= N.to_nat NUM_CONDITIONS_PER_TRIGGER)%nat /\ (length acts <= N.to_nat NUM_ACTIONS_PER_TRIGGER)%nat /\
    v = mk_struct
          [("_conditions", VList (pad_to (N.to_nat NUM_CONDITIONS_PER_TRIGGER) (empty_entry condition_record_fields) cs));
           ("_actions", VList (pad_to (N.to_nat NUM_ACTIONS_PER_TRIGGER) (empty_entry action_record_fields) acts));
           ("_player_execution",
            mk_struct [("_execution_flags", VInt 0);
                       ("_player_flags",
                        VList (map (fun p => VInt (if existsb (N.eqb p) (t_players t) then 1 else 0)) player_ids));
                       ("_current_action_index", VInt 0)])].
Proof.
  unfold trigger_encode. intros H. inv_bind H as cs Hcs H. inv_bind H as acts Hacts H.
  destruct (Nat.ltb _ (length cs)) eqn:Ec; [discriminate|]. destruct (Nat.ltb _ (length acts)) eqn:Ea; [discriminate|].
  apply PeanoNat.Nat.ltb_ge in Ec, Ea. apply Ok_inj in H as <-. exists cs, acts. auto.
Qed.

Lemma trig_encode_val cx ts v : trig_encode cx ts = Ok v ->
  exists vs, mapM (trigger_encode cx) ts = Ok vs /\ v = mk_struct [("_triggers", VList vs)].
Proof. unfold trig_encode. intros H. inv_bind H as vs Hvs H. apply Ok_inj in H as <-. eauto. Qed.

Lemma trigger_encode_inv cx t v :
  trigger_encode cx t = Ok v ->
  exists cs acts,
    mapM (encode_entry_of cx gen_condition_table condition_flags_codec condition_record_fields) (t_conds t) = Ok cs /\
    mapM (encode_entry_of cx gen_action_table action_flags_codec action_record_fields) (t_acts t) = Ok acts /\
    (length cs <= N.to_nat NUM_CONDITIONS_PER_TRIGGER)%nat /\ (length acts <= N.to_nat NUM_ACTIONS_PER_TRIGGER)%nat /\
    vlist "_conditions" v = pad_to (N.to_nat NUM_CONDITIONS_PER_TRIGGER) (empty_entry condition_record_fields) cs /\
    vlist "_actions" v = pad_to (N.to_nat NUM_ACTIONS_PER_TRIGGER) (empty_entry action_record_fields) acts.
Proof.
  intros (cs & acts & Hcs & Hacts & Ec & Ea & ->)%trigger_encode_val. exists cs, acts. repeat split; assumption.
Qed.

Lemma trig_encode_inv cx ts v : trig_encode cx ts = Ok v -> mapM (trigger_encode cx) ts = Ok (vlist "_triggers" v).
Proof. intros (vs & Hvs & ->)%trig_encode_val. exact Hvs. Qed.

Lemma trig_decode_inv cx v ts : trig_decode cx v = Ok ts -> mapM (trigger_decode cx) (vlist "_triggers" v) = Ok ts.
Proof. intros H. exact H. Qed.

(* trigger k of the written section encodes what was decoded from trigger k of the read one, also when triggers were
   appended in between *)
Theorem trig_section_triggerwise_app cx cx' v ts new v' :
  trig_decode cx v = Ok ts -> trig_encode cx' (ts ++ new) = Ok v' ->
  length (vlist "_triggers" v') = (length (vlist "_triggers" v) + length new)%nat /\
  forall k tv, nth_error (vlist "_triggers" v) k = Some tv ->
    exists t tv', trigger_decode cx tv = Ok t /\ trigger_encode cx' t = Ok tv' /\ nth_error (vlist "_triggers" v') k = Some tv'.
Proof.
  intros Hd%trig_decode_inv Hvs%trig_encode_inv. split.
  - rewrite (mapM_length _ _ _ Hvs), app_length, (mapM_length _ _ _ Hd). reflexivity.
  - intros k tv Hk. destruct (mapM_nth _ _ _ _ _ Hd Hk) as (t & Ht & Hnt).
    assert (nth_error (ts ++ new) k = Some t) as Hnt' by (rewrite nth_error_app1; [exact Hnt | apply nth_error_Some; congruence]).
    destruct (mapM_nth _ _ _ _ _ Hvs Hnt') as (tv' & Htv' & Hn'). exists t, tv'. auto.
Qed.
