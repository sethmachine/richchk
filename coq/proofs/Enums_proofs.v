(* The enum codec of model/Enums.v is exact on the whole of N for any table with distinct ids and distinct members. *)
From Coq Require Import NArith List Bool String Lia.
From RC Require Import lib.Result model.Enums.
Import ListNotations.
Local Open Scope N_scope.

Lemma nodup_N_spec l : nodup_N l = true -> NoDup l.
Proof.
  induction l as [|x r IH]; simpl; intros H; constructor; apply andb_true_iff in H as [H Hr]; [|auto].
  apply negb_true_iff in H. exact (not_existsb_eqb _ _ _ N.eqb_refl H).
Qed.

Lemma nodup_str_spec l : nodup_str l = true -> NoDup l.
Proof.
  induction l as [|x r IH]; simpl; intros H; constructor; apply andb_true_iff in H as [H Hr]; [|auto].
  apply negb_true_iff in H. exact (not_existsb_eqb _ _ _ String.eqb_refl H).
Qed.

Lemma enum_map_get_notin E n : ~ In n (map fst E) -> enum_map_get E n = None.
Proof.
  induction E as [|[i m] r IH]; simpl; intros H; [reflexivity|].
  rewrite IH by tauto. destruct (N.eqb_spec i n); [subst; tauto | reflexivity].
Qed.

Lemma enum_map_get_in E i m :
  NoDup (map fst E) -> In (i, m) E -> enum_map_get E i = Some m.
Proof.
  induction E as [|[j m'] r IH]; simpl; intros Hnd Hin; [tauto|].
  inversion Hnd as [|? ? Hnotin Hnd']; subst.
  destruct Hin as [Heq | Hin].
  - inversion Heq; subst. rewrite enum_map_get_notin by assumption. rewrite N.eqb_refl. reflexivity.
  - rewrite IH by assumption. reflexivity.
Qed.

Lemma enum_encode_in E i m :
  NoDup (map snd E) -> In (i, m) E -> enum_encode E m = Ok i.
Proof.
  induction E as [|[j m'] r IH]; simpl; intros Hnd Hin; [tauto|].
  inversion Hnd as [|? ? Hnotin Hnd']; subst.
  destruct Hin as [Heq | Hin].
  - inversion Heq; subst. rewrite String.eqb_refl. reflexivity.
  - destruct (String.eqb_spec m m') as [->|Hne].
    + exfalso. apply Hnotin. change m' with (snd (i, m')). apply in_map. assumption.
    + apply IH; assumption.
Qed.

Lemma enum_map_get_some E n m : enum_map_get E n = Some m -> In (n, m) E.
Proof.
  induction E as [|[j m'] r IH]; simpl; [discriminate|].
  destruct (enum_map_get r n) as [m''|].
  - intros [= ->]. auto.
  - destruct (N.eqb_spec j n); [intros [= ->]; subst; auto | discriminate].
Qed.

Definition enum_exact (E : enum_table) : Prop :=
  (forall i m, In (i, m) E -> enum_decode E i = Ok m /\ enum_encode E m = Ok i) /\
  (forall n, ~ In n (map fst E) -> enum_decode E n = Raise KeyError) /\
  (forall n m, enum_decode E n = Ok m -> In (n, m) E /\ enum_encode E m = Ok n) /\
  (forall i m1 m2, In (i, m1) E -> In (i, m2) E -> m1 = m2) /\
  (forall i1 i2 m, In (i1, m) E -> In (i2, m) E -> i1 = i2).

Theorem enum_exact_wf E : enum_wf E = true -> enum_exact E.
Proof.
  unfold enum_wf. intros H. apply andb_true_iff in H as [Hi%nodup_N_spec Hs%nodup_str_spec].
  assert (forall i m, In (i, m) E -> enum_decode E i = Ok m /\ enum_encode E m = Ok i) as A.
  { intros i m Hin. unfold enum_decode. rewrite (enum_map_get_in E i m) by assumption.
    split; [reflexivity | apply enum_encode_in; assumption]. }
  split; [exact A|]. split; [|split; [|split]].
  - intros n Hn. unfold enum_decode. rewrite enum_map_get_notin by assumption. reflexivity.
  - intros n m Hd. unfold enum_decode in Hd.
    destruct (enum_map_get E n) as [m'|] eqn:G; [|discriminate]. injection Hd as ->.
    apply enum_map_get_some in G. split; [assumption | apply A; assumption].
  - intros i m1 m2 H1 H2. destruct (A i m1 H1) as [D1 _]. destruct (A i m2 H2) as [D2 _]. congruence.
  - intros i1 i2 m H1 H2. destruct (A i1 m H1) as [_ D1]. destruct (A i2 m H2) as [_ D2]. congruence.
Qed.
