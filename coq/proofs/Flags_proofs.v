(* Why the bit-flag codecs of model/Flags.v are exact: a boolean check on the shape of a codec's two tables
   ([codec_wf]) and, for every codec that passes it, both round trips for ALL numbers and all boolean vectors. *)
From Coq Require Import NArith List Bool String Lia.
From RC Require Import lib.Result model.Flags.
Import ListNotations.
Local Open Scope N_scope.

Definition num_roundtrip (c : flag_codec) (nbits x : N) : Prop :=
  exists r, fdecode c x = Ok r /\ fencode c r = Ok (x mod 2 ^ nbits).

Definition rich_roundtrip (c : flag_codec) (nbits : N) (bs : list bool) : Prop :=
  exists x, fencode c (rich_of_bools c bs) = Ok x /\ x < 2 ^ nbits /\
            fdecode c x = Ok (rich_of_bools c bs).

(* the decode table reads S[-(p+1)], S[-(p+2)], ... in this order, never beyond the W padded digits (so no
   IndexError), into pairwise distinct fields *)
Fixpoint dec_wf (w p : N) (d : list (string * N * bool)) : bool :=
  match d with
  | [] => true
  | (f, k, _) :: d' =>
      (k =? p + 1) && (k <=? w) && negb (existsb (fun e => String.eqb (fst (fst e)) f) d') && dec_wf w (p + 1) d'
  end.

(* and the f-string lists the same fields, most significant first *)
Definition codec_wf (c : flag_codec) : bool :=
  dec_wf (fc_width c) 0 (fc_dec c) &&
  rich_eqb (fc_enc c) (rev (map (fun '(f, _, neg) => (f, neg)) (fc_dec c))).

Lemma dec_wf_cons w p f k neg d :
  dec_wf w p ((f, k, neg) :: d) = true ->
  k = p + 1 /\ k <= w /\ (forall e, In e d -> fst (fst e) <> f) /\ dec_wf w (p + 1) d = true.
Proof.
  cbn [dec_wf]. intros H. apply andb_true_iff in H as [H Hd]. apply andb_true_iff in H as [H Hn].
  apply andb_true_iff in H as [Hk Hw]. apply N.eqb_eq in Hk. apply N.leb_le in Hw.
  repeat split; try assumption. intros e He E.
  apply negb_true_iff, not_true_iff_false in Hn. apply Hn, existsb_exists.
  exists e. split; [exact He | apply String.eqb_eq, E].
Qed.

Lemma bit_from_right_ok w x k : k <> 0 -> k <= w -> bit_from_right w x k = Ok (N.testbit x (k - 1)).
Proof.
  intros H0 Hw. unfold bit_from_right, bitstring_len.
  destruct (N.eqb_spec k 0); [contradiction|].
  destruct (N.ltb_spec (N.max w (N.max 1 (N.size x))) k); [lia | reflexivity].
Qed.

(* the field values fdecode reads from x, in the order of the decode table *)
Definition dec_bits (x : N) (d : list (string * N * bool)) : list bool :=
  map (fun '(_, k, neg) => xorb neg (N.testbit x (k - 1))) d.

Lemma dec_bits_length x d : List.length (dec_bits x d) = List.length d.
Proof. apply map_length. Qed.

Lemma dec_wf_decodes w p d x :
  dec_wf w p d = true ->
  mapM (fun e => let '(f, k, neg) := e in do b <- bit_from_right w x k; Ok (f, xorb neg b)) d
  = Ok (combine (map (fun e => fst (fst e)) d) (dec_bits x d)).
Proof.
  revert p; induction d as [|[[f k] neg] d IH]; intros p H; [reflexivity|].
  apply dec_wf_cons in H as (Hk & Hw & _ & Hd).
  cbn [mapM]. rewrite bit_from_right_ok by lia. rewrite (IH _ Hd). reflexivity.
Qed.

(* what fencode makes of the field values bs, given in the order of the decode table: least significant first *)
Fixpoint enc_value (d : list (string * N * bool)) (bs : list bool) : N :=
  match d, bs with
  | (_, _, neg) :: d', b :: bs' => 2 * enc_value d' bs' + N.b2n (xorb neg b)
  | _, _ => 0
  end.

(* the monadic fold is the pure one when every field is found *)
Lemma fencode_rev c r d bs :
  fc_enc c = rev (map (fun '(f, _, neg) => (f, neg)) d) ->
  map (fun e => flag_lookup (fst (fst e)) r) d = map Ok bs ->
  fencode c r = Ok (enc_value d bs).
Proof.
  intros He. unfold fencode. rewrite He, <- fold_left_rev_right, rev_involutive. clear He.
  revert bs; induction d as [|[[f k] neg] d IH]; intros [|b bs] H; try discriminate; [reflexivity|].
  cbn [map fst] in H. injection H as Hb Ht.
  cbn [map fold_right enc_value]. rewrite (IH _ Ht), Hb. reflexivity.
Qed.

Lemma lookup_combine w p d bs :
  dec_wf w p d = true -> List.length bs = List.length d ->
  map (fun e => flag_lookup (fst (fst e)) (combine (map (fun e => fst (fst e)) d) bs)) d = map Ok bs.
Proof.
  revert p bs; induction d as [|[[f k] neg] d IH]; intros p [|b bs] H Hl; try discriminate; [reflexivity|].
  apply dec_wf_cons in H as (_ & _ & Hn & Hd). injection Hl as Hl.
  cbn [map combine flag_lookup fst]. rewrite String.eqb_refl. f_equal.
  rewrite <- (IH _ _ Hd Hl). apply map_ext_in. intros e He.
  destruct (String.eqb_spec (fst (fst e)) f) as [E|_]; [destruct (Hn e He E) | reflexivity].
Qed.

Lemma pow2_nonzero n : 2 ^ n <> 0.
Proof. apply N.pow_nonzero. discriminate. Qed.

Lemma mod_pow2_succ y n : y mod 2 ^ N.succ n = 2 * ((y / 2) mod 2 ^ n) + y mod 2.
Proof. rewrite N.pow_succ_r', N.mod_mul_r by (try apply pow2_nonzero; discriminate). apply N.add_comm. Qed.

(* encoding the bits decoded from x: the entries for positions p + 1 .. p + len carry (x / 2^p) mod 2^len *)
Lemma enc_value_dec_bits w p d x :
  dec_wf w p d = true -> enc_value d (dec_bits x d) = (x / 2 ^ p) mod 2 ^ N.of_nat (List.length d).
Proof.
  unfold dec_bits. revert p; induction d as [|[[f k] neg] d IH]; intros p H.
  - simpl. rewrite N.mod_1_r. reflexivity.
  - apply dec_wf_cons in H as (-> & _ & _ & Hd).
    cbn [map enc_value List.length]. rewrite (IH _ Hd), <- xorb_assoc, xorb_nilpotent, xorb_false_l.
    rewrite N.add_sub, N.testbit_spec', Nat2N.inj_succ, mod_pow2_succ.
    rewrite N.add_1_r, N.pow_succ_r', (N.mul_comm 2 (2 ^ p)), <- N.div_div by (try apply pow2_nonzero; discriminate).
    reflexivity.
Qed.

Lemma enc_value_lt d bs : enc_value d bs < 2 ^ N.of_nat (List.length d).
Proof.
  revert bs; induction d as [|[[f k] neg] d IH]; intros [|b bs]; try apply N.neq_0_lt_0, pow2_nonzero.
  cbn [enc_value List.length]. rewrite Nat2N.inj_succ, N.pow_succ_r'.
  specialize (IH bs). destruct (xorb neg b); cbn [N.b2n]; lia.
Qed.

Lemma enc_value_inj d bs1 bs2 :
  List.length bs1 = List.length d -> List.length bs2 = List.length d -> enc_value d bs1 = enc_value d bs2 -> bs1 = bs2.
Proof.
  revert bs1 bs2; induction d as [|[[f k] neg] d IH]; intros [|b1 bs1] [|b2 bs2] H1 H2 H; try discriminate; [reflexivity|].
  injection H1 as H1. injection H2 as H2. cbn [enc_value] in H.
  assert (enc_value d bs1 = enc_value d bs2 /\ b1 = b2) as [Hv ->]
    by (destruct neg, b1, b2; cbn [xorb N.b2n] in H; split; (reflexivity || lia)).
  f_equal. apply IH; assumption.
Qed.

Lemma rich_eqb_eq a b : rich_eqb a b = true -> a = b.
Proof.
  revert b; induction a as [|[f x] a IH]; intros [|[g y] b]; simpl; intros H; try discriminate; [reflexivity|].
  apply andb_true_iff in H as [H H3]. apply andb_true_iff in H as [H1 H2].
  apply String.eqb_eq in H1. apply Bool.eqb_prop in H2. subst. f_equal. apply IH; assumption.
Qed.

Lemma fdecode_wf c x : codec_wf c = true -> fdecode c x = Ok (rich_of_bools c (dec_bits x (fc_dec c))).
Proof. intros H. apply andb_true_iff in H as [Hd _]. apply (dec_wf_decodes _ _ _ _ Hd). Qed.

Lemma fencode_wf c bs :
  codec_wf c = true -> List.length bs = List.length (fc_dec c) ->
  fencode c (rich_of_bools c bs) = Ok (enc_value (fc_dec c) bs).
Proof.
  intros H Hl. apply andb_true_iff in H as [Hd He]. apply rich_eqb_eq in He.
  apply (fencode_rev c _ _ _ He), (lookup_combine _ _ _ _ Hd Hl).
Qed.

Lemma reencode_wf c x :
  codec_wf c = true -> enc_value (fc_dec c) (dec_bits x (fc_dec c)) = x mod 2 ^ N.of_nat (List.length (fc_dec c)).
Proof.
  intros H. apply andb_true_iff in H as [Hd _].
  rewrite (enc_value_dec_bits _ _ _ _ Hd), N.pow_0_r, N.div_1_r. reflexivity.
Qed.

Theorem wf_num_roundtrip c :
  codec_wf c = true -> forall x, num_roundtrip c (N.of_nat (List.length (fc_dec c))) x.
Proof.
  intros H x. exists (rich_of_bools c (dec_bits x (fc_dec c))). split; [apply fdecode_wf, H|].
  rewrite (fencode_wf c _ H (dec_bits_length x _)), (reencode_wf c x H). reflexivity.
Qed.

Theorem wf_rich_roundtrip c :
  codec_wf c = true -> forall bs : list bool, List.length bs = List.length (fc_dec c) ->
  rich_roundtrip c (N.of_nat (List.length (fc_dec c))) bs.
Proof.
  intros H bs Hl. exists (enc_value (fc_dec c) bs).
  split; [apply fencode_wf; assumption|]. split; [apply enc_value_lt|].
  rewrite (fdecode_wf c _ H). unfold rich_of_bools. do 2 f_equal.
  (* the decoded bits encode to the same number again, and enc_value is injective *)
  apply (enc_value_inj (fc_dec c)); [apply dec_bits_length | exact Hl |].
  rewrite (reencode_wf c _ H). apply N.mod_small, enc_value_lt.
Qed.

Lemma rich_injective c nb bs1 bs2 :
  rich_roundtrip c nb bs1 -> rich_roundtrip c nb bs2 ->
  fencode c (rich_of_bools c bs1) = fencode c (rich_of_bools c bs2) ->
  rich_of_bools c bs1 = rich_of_bools c bs2.
Proof.
  intros (x1 & E1 & _ & D1) (x2 & E2 & _ & D2) H. rewrite E1, E2 in H. inversion H; subst. congruence.
Qed.

Lemma fdecode_names c x r : fdecode c x = Ok r -> map fst r = map (fun e => fst (fst e)) (fc_dec c).
Proof.
  unfold fdecode. generalize (fc_dec c). intros l. revert r.
  induction l as [|[[f k] ng] l IH]; intros r H; [inversion H; reflexivity|].
  apply mapM_cons_inv in H as (p & r' & Hp & Hr & ->). inv_bind Hp as b Hb Hk. inversion Hk; subst p.
  simpl. f_equal. apply IH. exact Hr.
Qed.

Lemma num_roundtrip_sound c nb x : num_roundtrip_ok c nb x = true -> num_roundtrip c nb x.
Proof.
  unfold num_roundtrip_ok, num_roundtrip. destruct (fdecode c x) as [r|]; [|discriminate].
  unfold result_N_eqb. destruct (fencode c r) as [v|] eqn:E; [|discriminate].
  intros H. apply N.eqb_eq in H. subst. exists r. split; [reflexivity | exact E].
Qed.

Lemma rich_roundtrip_sound c nb bs : rich_roundtrip_ok c nb bs = true -> rich_roundtrip c nb bs.
Proof.
  unfold rich_roundtrip_ok, rich_roundtrip. destruct (fencode c (rich_of_bools c bs)) as [x|]; [|discriminate].
  intros H. apply andb_true_iff in H as [H1 H2]. apply N.ltb_lt in H1.
  destruct (fdecode c x) as [r'|] eqn:D; [|discriminate]. apply rich_eqb_eq in H2. subst.
  exists x. split; [reflexivity | split; [exact H1 | exact D]].
Qed.
