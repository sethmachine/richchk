(* Soundness of the ownership checker of model/Heap.v: in a table of functions accepted by [table_ok], a function that
   reserves no parameter for objects of its caller's own making (public_fn) never writes to a cell that existed when the
   outermost call started, whatever the heap, the arguments, the oracle (branches, iteration counts, element choices,
   unknown values) and the fuel (where the run is cut short). *)
From Coq Require Import NArith List Bool Arith Lia.
From RC Require Import model.Heap.
Import ListNotations.

Lemma nth_setnth_eq {A} (l : list A) n a d : n < length l -> nth n (setnth l n a) d = a.
Proof.
  revert n; induction l as [|h t IH]; intros n Hn; simpl in *; [lia|].
  destruct n as [|n]; simpl; [reflexivity|]. apply IH; lia.
Qed.

Lemma nth_setnth_neq {A} (l : list A) n m a d : n <> m -> nth m (setnth l n a) d = nth m l d.
Proof.
  revert n m; induction l as [|h t IH]; intros n m Hn; simpl; [reflexivity|].
  destruct n as [|n]; destruct m as [|m]; simpl; try reflexivity; try lia.
  apply IH; lia.
Qed.

Lemma length_setnth {A} (l : list A) n a : length (setnth l n a) = length l.
Proof. revert n; induction l as [|h t IH]; intros [|n]; simpl; auto. Qed.

Lemma setnth_out {A} (l : list A) n a : length l <= n -> setnth l n a = l.
Proof.
  revert n; induction l as [|h t IH]; intros n Hn; simpl in *; [reflexivity|].
  destruct n as [|n]; [lia|]. f_equal; apply IH; lia.
Qed.

Lemma nth_error_setnth_neq {A} (l : list A) n m a : n <> m -> nth_error (setnth l n a) m = nth_error l m.
Proof.
  revert n m; induction l as [|h t IH]; intros n m Hn; simpl; [reflexivity|].
  destruct n as [|n]; destruct m as [|m]; simpl; try reflexivity; try lia.
  apply IH; lia.
Qed.

Lemma nth_meetl a b x : nth x (meetl a b) false = nth x a false && nth x b false.
Proof.
  revert b x; induction a as [|p a IH]; intros b x; simpl.
  - destruct x; reflexivity.
  - destruct b as [|q b]; simpl.
    + destruct x; simpl; rewrite andb_false_r; reflexivity.
    + destruct x; simpl; [reflexivity|apply IH].
Qed.

Lemma nth_map_false {A} (l : list A) x : nth x (map (fun _ => false) l) false = false.
Proof. revert x; induction l as [|a l IH]; intros [|x]; simpl; auto. Qed.

Lemma eqbl_eq a b : eqbl a b = true -> a = b.
Proof.
  revert b; induction a as [|x a IH]; intros [|y b] H; simpl in H; try discriminate; [reflexivity|].
  apply andb_true_iff in H; destruct H as [H1 H2]. apply eqb_prop in H1. f_equal; auto.
Qed.

Lemma aenv_eqb_eq a b : aenv_eqb a b = true -> a = b.
Proof.
  unfold aenv_eqb; intros H. apply andb_true_iff in H; destruct H as [H1 H2].
  apply eqbl_eq in H1; apply eqb_prop in H2. destruct a, b; simpl in *; congruence.
Qed.

(* what the abstract environment calls fresh holds an atom or an object that did not exist in a heap of n0 cells *)
Definition env_ok (n0 : nat) (g : aenv) (e : list val) : Prop :=
  forall x, isf g x = true -> vfresh n0 (getv e x).

(* the invariant of a run from the heap h0, where the checker has reached g: no cell of h0 has changed; while the run goes
   on g is right about the variables; once it has returned, about the result *)
Definition Inv (h0 : heap) (g : aenv) (s : state) : Prop :=
  frame h0 (hp s) /\
  (halt s = 0 -> env_ok (length h0) g (env s)) /\
  (halt s = 1 -> rfresh g = true -> vfresh (length h0) (ret s)).

(* g2 claims no more than g1 *)
Definition aenv_le (g2 g1 : aenv) : Prop :=
  (forall x, isf g2 x = true -> isf g1 x = true) /\ (rfresh g2 = true -> rfresh g1 = true).

Lemma aenv_le_refl g : aenv_le g g.  Proof. split; auto. Qed.
Lemma aenv_le_trans a b c : aenv_le a b -> aenv_le b c -> aenv_le a c.
Proof. intros [A1 A2] [B1 B2]; split; auto. Qed.

Lemma meet_le_l a b : aenv_le (meet a b) a.
Proof.
  split; unfold isf, meet; simpl.
  - intros x H. rewrite nth_meetl in H. apply andb_true_iff in H; tauto.
  - intros H. apply andb_true_iff in H; tauto.
Qed.

Lemma meet_le_r a b : aenv_le (meet a b) b.
Proof.
  split; unfold isf, meet; simpl.
  - intros x H. rewrite nth_meetl in H. apply andb_true_iff in H; tauto.
  - intros H. apply andb_true_iff in H; tauto.
Qed.

Lemma Inv_weaken h0 g1 g2 s : Inv h0 g1 s -> aenv_le g2 g1 -> Inv h0 g2 s.
Proof.
  intros (F & E & R) [L1 L2]. split; [exact F|]. split.
  - intros Hh x Hx. apply E; auto.
  - intros Hh Hr. apply R; auto.
Qed.

Lemma frame_refl h : frame h h.  Proof. intros l _; reflexivity. Qed.

Lemma frame_length h0 h : frame h0 h -> length h0 <= length h.
Proof.
  intros F. destruct (length h0) as [|n] eqn:E; [lia|].
  assert (Hn : n < length h0) by lia.
  specialize (F n Hn).
  destruct (nth_error h0 n) eqn:E0; [|apply nth_error_None in E0; lia].
  assert (Hn' : nth_error h n <> None) by congruence.
  apply nth_error_Some in Hn'. lia.
Qed.

Lemma frame_trans h0 h1 h2 : frame h0 h1 -> frame h1 h2 -> frame h0 h2.
Proof. intros F1 F2 l Hl. pose proof (frame_length _ _ F1). rewrite F2 by lia. apply F1; auto. Qed.

Lemma frame_app h0 h cs : frame h0 h -> frame h0 (h ++ cs).
Proof.
  intros F l Hl. rewrite nth_error_app1; [auto|].
  pose proof (frame_length _ _ F). lia.
Qed.

Lemma frame_setnth h0 h l c : frame h0 h -> length h0 <= l -> frame h0 (setnth h l c).
Proof. intros F Hl l' Hl'. rewrite nth_error_setnth_neq; [auto|lia]. Qed.

Lemma isf_setf_eq g x b : isf (setf g x b) x = true -> b = true.
Proof.
  unfold isf, setf; simpl. intros H.
  destruct (Nat.lt_ge_cases x (length (fresh g))) as [Hl|Hl].
  - rewrite nth_setnth_eq in H; auto.
  - rewrite setnth_out in H by lia. rewrite nth_overflow in H by lia. discriminate.
Qed.

Lemma isf_setf_neq g x y b : x <> y -> isf (setf g x b) y = isf g y.
Proof. unfold isf, setf; simpl. intros H. apply nth_setnth_neq; auto. Qed.

Lemma getv_set_eq e x v n0 : vfresh n0 v -> vfresh n0 (getv (setnth e x v) x).
Proof.
  unfold getv. intros Hv.
  destruct (Nat.lt_ge_cases x (length e)) as [Hl|Hl].
  - rewrite nth_setnth_eq; auto.
  - rewrite setnth_out by lia. rewrite nth_overflow by lia. exact I.
Qed.

Lemma env_ok_set n0 g e x b v :
  env_ok n0 g e -> (b = true -> vfresh n0 v) -> env_ok n0 (setf g x b) (setnth e x v).
Proof.
  intros E Hv y Hy. destruct (Nat.eq_dec x y) as [->|Hn].
  - apply getv_set_eq. apply Hv. eapply isf_setf_eq; eauto.
  - rewrite isf_setf_neq in Hy by auto. unfold getv. rewrite nth_setnth_neq by auto. apply E; auto.
Qed.

Lemma rfresh_setf g x b : rfresh (setf g x b) = rfresh g.  Proof. reflexivity. Qed.

Lemma Inv_setv h0 g s x b v :
  Inv h0 g s -> (halt s = 0 -> b = true -> vfresh (length h0) v) -> Inv h0 (setf g x b) (setv s x v).
Proof.
  intros (F & E & R) Hv. split; [exact F|]. split; simpl.
  - intros Hh. apply env_ok_set; auto.
  - intros Hh Hr. apply R; auto.
Qed.

Lemma Inv_alloc h0 g s x c :
  Inv h0 g s ->
  Inv h0 (setf g x true) (setv (mkst (hp s ++ [c]) (env s) (orc s) (halt s) (ret s)) x (VLoc (length (hp s)))).
Proof.
  intros (F & E & R). apply Inv_setv; simpl.
  - split; [apply frame_app; exact F | split; assumption].
  - intros _ _. apply frame_length, F.
Qed.

Lemma Inv_choice h0 g s : Inv h0 g s -> Inv h0 g (snd (choice s)).
Proof. unfold choice. destruct (orc s); intros HI; exact HI. Qed.

Lemma Inv_deep h0 g s x : Inv h0 g s -> Inv h0 (setf g x true) (deep s x).
Proof.
  intros HI. apply Inv_choice in HI. unfold deep. destruct (choice s) as [k s1]. cbn [snd] in HI.
  destruct (gen_cells _ _ _ _) as [cs o]. destruct HI as (F & E & R).
  split; simpl; [apply frame_app; exact F|]. split; [|exact R].
  intros Hh. apply env_ok_set; [apply E, Hh|]. intros _. apply frame_length, F.
Qed.

Lemma Inv_write h0 g s v c vs : Inv h0 g s -> vfresh (length h0) v -> Inv h0 g (write s v c vs).
Proof.
  intros HI Hv. unfold write. destruct v as [|l]; [exact HI|].
  destruct HI as (F & E & R). split; [apply frame_setnth; assumption | split; assumption].
Qed.

Lemma Inv_leave h0 g gf s sc x b :
  Inv h0 g s -> halt s = 0 -> Inv h0 gf sc -> (b = true -> rfresh gf = true) -> Inv h0 (setf g x b) (leave s sc x).
Proof.
  intros (F & E & R) Eh (Fc & _ & Rc) Hb. unfold leave. split; simpl; [exact Fc|]. split.
  - intros Hh. apply env_ok_set; [apply E; exact Eh|].
    intros Hsr. destruct (Nat.eqb (halt sc) 1) eqn:E1; [|exact I]. apply Nat.eqb_eq in E1. auto.
  - intros Hh. destruct (Nat.eqb (halt sc) 2); discriminate.
Qed.

(* a run that was cut short promises nothing beyond the frame *)
Lemma Inv_aborted h0 g s : frame h0 (hp s) -> halt s = 2 -> Inv h0 g s.
Proof. intros F H. split; [exact F|]. rewrite H. split; discriminate. Qed.

Lemma loop_inv_spec k body g gi :
  loop_inv k body g = Some gi -> aenv_le gi g /\ exists g1, body gi = Some g1 /\ aenv_le gi g1.
Proof.
  revert g; induction k as [|k IH]; intros g H; simpl in H; [discriminate|].
  destruct (body g) as [g1|] eqn:Eb; [|discriminate].
  destruct (aenv_eqb (meet g g1) g) eqn:Eq.
  - inversion H; subst gi. split; [apply aenv_le_refl|]. exists g1. split; [exact Eb|].
    apply aenv_eqb_eq in Eq. rewrite <- Eq at 1. apply meet_le_r.
  - apply IH in H. destruct H as [L Ex]. split; [|exact Ex].
    eapply aenv_le_trans; [exact L|apply meet_le_l].
Qed.

Local Arguments loop_inv : simpl never.

(* the check of a non-empty program: g1 is the abstract environment after the first statement *)
Lemma check_cons_inv sums cf i rest g g' : check sums (S cf) (i :: rest) g = Some g' ->
  exists g1, check sums cf rest g1 = Some g' /\
    match i with
    | SAtom x | SNew x _ | SCopy x _ | SDeep x _ => g1 = setf g x true
    | SAny x | SRead x _ => g1 = setf g x false
    | SMove x y => g1 = setf g x (isf g y)
    | SWrite x _ => isf g x = true /\ g1 = g
    | SRet y => g1 = mkae (fresh g) (rfresh g && isf g y)
    | SRaise => g1 = g
    | STry a b => exists ga gh, check sums cf a g = Some ga /\
                    check sums cf b (mkae (map (fun _ => false) (fresh ga)) (rfresh ga)) = Some gh /\ g1 = meet ga gh
    | SIf a b => exists ga gb, check sums cf a g = Some ga /\ check sums cf b g = Some gb /\ g1 = meet ga gb
    | SLoop b => loop_inv (S (S (length (fresh g)))) (check sums cf b) g = Some g1
    | SCall x h ys => exists sm, nth_error sums h = Some sm /\ args_ok g (s_pfresh sm) ys = true /\
                        g1 = setf g x (s_ret sm)
    end.
Proof.
  cbn [check]. cbv zeta. intros H.
  (* for the statements that only assign to g, H is the check of the rest already *)
  destruct i as [x|x|x ys|x y|x y|x y|x y|x ys|y| |a b|a b|b|x fi ys]; try (eexists; split; [exact H | reflexivity]).
  - (* SWrite *) destruct (isf g x); [|discriminate]. exists g. split; [exact H | auto].
  - (* STry *) destruct (check sums cf a g) as [ga|]; [|discriminate].
    destruct (check sums cf b _) as [gh|] eqn:Eb; [|discriminate]. exists (meet ga gh). split; [exact H | eauto].
  - (* SIf *) destruct (check sums cf a g) as [ga|]; [|discriminate]. destruct (check sums cf b g) as [gb|]; [|discriminate].
    exists (meet ga gb). split; [exact H | eauto].
  - (* SLoop *) destruct (loop_inv _ _ g) as [g1|]; [|discriminate]. exists g1. split; [exact H | reflexivity].
  - (* SCall *) destruct (nth_error sums fi) as [sm|]; [|discriminate].
    destruct (args_ok g (s_pfresh sm) ys) eqn:Ea; [|discriminate].
    exists (setf g x (s_ret sm)). split; [exact H | eauto].
Qed.

(* only [SRet] touches the return flag, and only downwards *)
Lemma check_rfresh sums cf : forall p g g', check sums cf p g = Some g' -> rfresh g' = true -> rfresh g = true.
Proof.
  induction cf as [|cf IH]; intros p g g' H Hr; [discriminate|].
  destruct p as [|i rest]; [inversion H; subst; exact Hr|].
  apply check_cons_inv in H as (g1 & H & Hi). pose proof (IH _ _ _ H Hr) as H1. clear H Hr.
  destruct i; try (subst g1; exact H1).
  - (* SWrite *) destruct Hi as [_ ->]. exact H1.
  - (* SRet *) subst g1. simpl in H1. apply andb_true_iff in H1. tauto.
  - (* STry *) destruct Hi as (ga & gh & Ea & _ & ->). simpl in H1. apply andb_true_iff in H1 as [I1 _]. exact (IH _ _ _ Ea I1).
  - (* SIf *) destruct Hi as (ga & gb & Ea & _ & ->). simpl in H1. apply andb_true_iff in H1 as [I1 _]. exact (IH _ _ _ Ea I1).
  - (* SLoop *) apply loop_inv_spec in Hi as [[_ L] _]. auto.
  - (* SCall *) destruct Hi as (sm & _ & _ & ->). exact H1.
Qed.

Lemma args_ok_spec g pf ys x :
  args_ok g pf ys = true -> nth x pf false = true -> x < length ys /\ isf g (nth x ys 0) = true.
Proof.
  revert ys x; induction pf as [|b pf IH]; intros ys x H Hx; simpl in *.
  - destruct x; discriminate.
  - destruct ys as [|y ys].
    + apply andb_true_iff in H. destruct H as [Hb H]. destruct x as [|x].
      * subst b. discriminate.
      * destruct (IH [] x H Hx) as [Hl _]. simpl in Hl. lia.
    + apply andb_true_iff in H. destruct H as [Hb H]. destruct x as [|x]; simpl.
      * subst b. simpl in Hb. split; [lia|exact Hb].
      * destruct (IH ys x H Hx). split; [lia|auto].
Qed.

Lemma forallb2_nth {A B} (f : A -> B -> bool) a b n x :
  forallb2 f a b = true -> nth_error a n = Some x -> exists y, nth_error b n = Some y /\ f x y = true.
Proof.
  revert b n; induction a as [|p a IH]; intros b n H Hn.
  - destruct n; discriminate.
  - destruct b as [|q b]; simpl in H; [discriminate|].
    apply andb_true_iff in H. destruct H as [H1 H2].
    destruct n as [|n]; simpl in *.
    + inversion Hn; subst. eauto.
    + eapply IH; eauto.
Qed.

Lemma nth_firstn_lt {A} (l : list A) n x d : x < n -> nth x (firstn n l) d = nth x l d.
Proof.
  revert n x; induction l as [|h t IH]; intros n x H; simpl.
  - rewrite firstn_nil. reflexivity.
  - destruct n as [|n]; [lia|]. destruct x as [|x]; simpl; [reflexivity|]. apply IH; lia.
Qed.

Lemma nth_app_repeat {A} (l : list A) (d : A) n x : nth x (l ++ repeat d n) d = nth x l d.
Proof.
  destruct (Nat.lt_ge_cases x (length l)) as [H|H].
  - apply app_nth1; auto.
  - rewrite app_nth2 by lia. rewrite (nth_overflow l) by lia.
    destruct (Nat.lt_ge_cases (x - length l) n) as [H2|H2].
    + apply nth_repeat.
    + apply nth_overflow. rewrite repeat_length. lia.
Qed.

Lemma isf_init fn x : isf (init_aenv fn) x = true -> x < f_nvars fn /\ nth x (f_pfresh fn) false = true.
Proof.
  unfold isf, init_aenv. simpl. intros Hx.
  destruct (Nat.lt_ge_cases x (f_nvars fn)) as [Hl|Hl].
  - rewrite nth_firstn_lt, nth_app_repeat in Hx by exact Hl. auto.
  - rewrite nth_overflow in Hx; [discriminate | rewrite firstn_length; lia].
Qed.

Lemma Inv_enter h0 g s fn ys :
  Inv h0 g s -> halt s = 0 -> args_ok g (f_pfresh fn) ys = true ->
  Inv h0 (init_aenv fn) (enter s fn (map (getv (env s)) ys)).
Proof.
  intros (F & E & R) Hh Ha. split; [exact F|]. split; simpl; [|discriminate].
  intros _ x Hx. apply isf_init in Hx as [Hl Hx]. destruct (args_ok_spec _ _ _ _ Ha Hx) as [Hy Hf].
  unfold getv at 1. rewrite nth_firstn_lt, nth_app_repeat by exact Hl.
  rewrite (nth_indep _ VAtom (getv (env s) 0)) by (rewrite map_length; exact Hy).
  rewrite map_nth. apply E; auto.
Qed.

Lemma Inv_start h o fn args :
  forallb negb (f_pfresh fn) = true -> Inv h (init_aenv fn) (enter (mkst h [] o 0 VAtom) fn args).
Proof.
  intros Hp. split; [apply frame_refl|]. split; simpl; [|discriminate].
  intros _ x Hx. apply isf_init in Hx as [_ Hx]. exfalso.
  destruct (Nat.lt_ge_cases x (length (f_pfresh fn))) as [H|H].
  - rewrite forallb_forall in Hp. specialize (Hp _ (nth_In _ false H)). rewrite Hx in Hp. discriminate.
  - rewrite nth_overflow in Hx by exact H. discriminate.
Qed.

Section Sound.
  Variable tab : list func.
  Variable sums : list fsum.
  Variable tfuel : nat.
  Hypothesis Htab : table_ok tfuel tab sums = true.

  Lemma checked_body g fn :
    nth_error tab g = Some fn ->
    exists sm gf, nth_error sums g = Some sm /\ s_pfresh sm = f_pfresh fn /\
                  check sums tfuel (f_body fn) (init_aenv fn) = Some gf /\ (s_ret sm = true -> rfresh gf = true).
  Proof.
    intros Et. destruct (forallb2_nth _ _ _ _ _ Htab Et) as (sm & Es & Hok).
    unfold func_ok in Hok. apply andb_true_iff in Hok as [Hpf Hok]. apply eqbl_eq in Hpf.
    destruct (check sums tfuel (f_body fn) (init_aenv fn)) as [gf|]; [|discriminate].
    exists sm, gf. repeat split; try assumption. intros Hr. rewrite Hr in Hok. exact Hok.
  Qed.

  Lemma exec_sound h0 : forall f cf p g g' s,
    check sums cf p g = Some g' -> Inv h0 g s -> Inv h0 g' (exec tab f p s).
  Proof.
    induction f as [|f IH]; intros cf p g g' s Hc HI; simpl.
    - apply Inv_aborted; [apply HI | reflexivity].
    - destruct cf as [|cf]; [discriminate|].
      destruct p as [|i rest]; [simpl in Hc; inversion Hc; subst; exact HI|].
      destruct (Nat.eqb (halt s) 0) eqn:Eh; simpl.
      2:{ (* already halted: nothing runs *)
          apply Nat.eqb_neq in Eh. destruct HI as (F & E & R). split; [exact F|]. split.
          - intros H0; contradiction.
          - intros H1 Hr. apply R; auto. eapply check_rfresh; [exact Hc|exact Hr]. }
      apply check_cons_inv in Hc as (g1 & Hc & Hi). apply Nat.eqb_eq in Eh.
      eapply IH; [exact Hc|]. clear Hc g'.
      pose proof (Inv_choice _ _ _ HI) as HIc.
      destruct (choice s) as [c s'] eqn:Ec; cbn [snd] in HIc.
      destruct i as [x|x|x ys|x y|x y|x y|x y|x ys|y| |a b|a b|b|x fi ys].
      + (* SAtom *) subst g1. apply Inv_setv; auto. intros; exact I.
      + (* SAny *) subst g1. apply Inv_setv; [exact HIc | discriminate].
      + (* SNew *) subst g1. unfold alloc. apply Inv_alloc, HI.
      + (* SCopy *) subst g1. unfold alloc. apply Inv_alloc, HI.
      + (* SDeep *) subst g1. apply Inv_deep, HI.
      + (* SMove *) subst g1. apply Inv_setv; auto.
        intros Hh Hb. destruct HI as (_ & E & _). apply E; auto.
      + (* SRead *) subst g1. apply Inv_setv; [exact HIc | discriminate].
      + (* SWrite *) destruct Hi as [Ex ->]. apply Inv_write; [exact HIc|].
        destruct HI as (_ & E & _). exact (E Eh x Ex).
      + (* SRet *) subst g1. destruct HI as (F & E & R).
        split; [exact F|]. split; simpl; [intros; discriminate|].
        intros _ Hr. apply andb_true_iff in Hr. destruct Hr as [_ Hy]. apply E; auto.
      + (* SRaise *) subst g1. apply Inv_aborted; [apply HI | reflexivity].
      + (* STry *) destruct Hi as (ga & gh & Ea & Eb & ->).
        pose proof (IH _ _ _ _ _ Ea HI) as HI1.
        destruct (Nat.eqb (halt (exec tab f a s)) 2) eqn:E2.
        * eapply Inv_weaken; [eapply IH; [exact Eb|]|apply meet_le_r].
          destruct HI1 as (F1 & _ & _). split; [exact F1|]. split; simpl; [|discriminate].
          (* the handler's abstract environment calls nothing fresh *)
          intros _ x Hx. unfold isf in Hx. simpl in Hx. rewrite nth_map_false in Hx. discriminate.
        * eapply Inv_weaken; [exact HI1|apply meet_le_l].
      + (* SIf *) destruct Hi as (ga & gb & Ea & Eb & ->). destruct c.
        * eapply Inv_weaken; [eapply IH; [exact Eb|exact HIc]|apply meet_le_r].
        * eapply Inv_weaken; [eapply IH; [exact Ea|exact HIc]|apply meet_le_l].
      + (* SLoop *)
        apply loop_inv_spec in Hi as [L (g2 & Eb & L2)].
        apply (Inv_weaken _ _ g1) in HIc; [|exact L].
        clear Ec. induction c as [|c IHc]; simpl; [exact HIc|].
        eapply Inv_weaken; [eapply IH; [exact Eb|exact IHc]|exact L2].
      + (* SCall *)
        destruct Hi as (sm & Es & Ea & ->).
        destruct (nth_error tab fi) as [fn|] eqn:Et; [|apply Inv_aborted; [apply HI | reflexivity]].
        destruct (checked_body _ _ Et) as (sm' & gf & Es' & Hpf & Ef & Hret).
        rewrite Es in Es'. inversion Es'; subst sm'. rewrite Hpf in Ea.
        exact (Inv_leave _ _ gf _ _ _ _ HI Eh (IH _ _ _ _ _ Ef (Inv_enter _ _ _ _ _ HI Eh Ea)) Hret).
  Qed.

  (* a call from outside: a function that reserves no parameter runs under the invariant, up to the gf in which the check
     of its body ends; a number that names no function leaves the heap as it is *)
  Lemma run_Inv fuel g h args o :
    match nth_error tab g with
    | Some fn => forallb negb (f_pfresh fn) = true ->
        exists sm gf, nth_error sums g = Some sm /\ (s_ret sm = true -> rfresh gf = true) /\
                      Inv h gf (run tab fuel g h args o)
    | None => hp (run tab fuel g h args o) = h
    end.
  Proof.
    unfold run. destruct (nth_error tab g) as [fn|] eqn:Et; [|reflexivity].
    intros Hp. destruct (checked_body _ _ Et) as (sm & gf & Es & _ & Ef & Hret).
    exists sm, gf. split; [exact Es|]. split; [exact Hret|].
    exact (exec_sound h fuel _ _ _ _ _ Ef (Inv_start h o fn args Hp)).
  Qed.

  (* any single call, from any heap with any arguments: no pre-existing cell changes *)
  Theorem run_frame fuel g h args o :
    public_fn tab g ->
    frame h (hp (run tab fuel g h args o)).
  Proof.
    intros Hp. pose proof (run_Inv fuel g h args o) as H. destruct (nth_error tab g) as [fn|] eqn:Et.
    - destruct (H (Hp fn Et)) as (sm & gf & _ & _ & F & _). exact F.
    - rewrite H. apply frame_refl.
  Qed.

  (* a function whose summary says "fresh" hands back an atom or an object created during the call *)
  Theorem run_returns_new fuel g h args o fn sm :
    nth_error tab g = Some fn -> forallb negb (f_pfresh fn) = true ->
    nth_error sums g = Some sm -> s_ret sm = true ->
    halt (run tab fuel g h args o) = 1 -> vfresh (length h) (ret (run tab fuel g h args o)).
  Proof.
    intros Et Hp Es Hr. pose proof (run_Inv fuel g h args o) as H. rewrite Et in H.
    destruct (H Hp) as (sm' & gf & Es' & Hret & _ & _ & R). rewrite Es in Es'. inversion Es'; subst sm'. auto.
  Qed.

  (* histories: any sequence of calls from outside, each on any values at all: every cell keeps, for ever, the contents
     it had when the call after which it first existed returned *)
  Theorem history_frame cs : Forall (fun c => public_fn tab (c_fn c)) cs -> forall h, frame h (fold_left (after tab) cs h).
  Proof.
    induction cs as [|c cs IH]; intros Hp h; simpl; [apply frame_refl|].
    inversion Hp as [|? ? Hc Hcs]; subst.
    eapply frame_trans; [|apply IH; exact Hcs].
    unfold after. apply run_frame. exact Hc.
  Qed.

  Corollary history_frame_between cs1 cs2 h :
    Forall (fun c => public_fn tab (c_fn c)) (cs1 ++ cs2) ->
    frame (fold_left (after tab) cs1 h) (fold_left (after tab) (cs1 ++ cs2) h).
  Proof.
    intros Hp. rewrite fold_left_app. apply history_frame.
    apply Forall_app in Hp. tauto.
  Qed.
End Sound.
