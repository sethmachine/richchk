(* [load] with indexes.  The model keeps sys.modules and the bound names as lists and scans them at every import, which
   alone makes evaluating a few hundred modules slow.  [load'] is the same algorithm over a state that also carries a set of
   the started modules and a map from each module to the set of its names, and asks those; [load'_sim]: the runs agree. *)
From Coq Require Import NArith List Bool Lia FMapPositive.
From RC Require Import lib.Result model.Imports.
Import ListNotations.
Local Open Scope N_scope.

Definition pset := PositiveMap.t unit.
Definition pmem (a : N) (s : pset) : bool :=
  match PositiveMap.find (N.succ_pos a) s with Some _ => true | None => false end.
Definition padd (a : N) (s : pset) : pset := PositiveMap.add (N.succ_pos a) tt s.

Lemma succ_pos_inj a b : N.succ_pos a = N.succ_pos b -> a = b.
Proof. intros H. rewrite <- (N.pos_pred_succ a), H. apply N.pos_pred_succ. Qed.

Lemma pmem_empty a : pmem a (PositiveMap.empty unit) = false.
Proof. unfold pmem. rewrite PositiveMap.gempty. reflexivity. Qed.

Lemma pmem_add a b s : pmem a (padd b s) = (a =? b) || pmem a s.
Proof.
  unfold pmem, padd. destruct (N.eqb_spec a b) as [->|H].
  - rewrite PositiveMap.gss. reflexivity.
  - rewrite PositiveMap.gso by (intros E; apply H, succ_pos_inj, E). reflexivity.
Qed.

Fixpoint index_from {A} (k : N) (l : list A) : PositiveMap.t A :=
  match l with
  | [] => PositiveMap.empty A
  | x :: r => PositiveMap.add (N.succ_pos k) x (index_from (N.succ k) r)
  end.
Definition index {A} (l : list A) : PositiveMap.t A := index_from 0 l.

Lemma index_from_spec {A} (l : list A) : forall k m,
  PositiveMap.find (N.succ_pos (k + m)) (index_from k l) = nth_error l (N.to_nat m).
Proof.
  induction l as [|x r IH]; intros k m; simpl.
  - rewrite PositiveMap.gempty. destruct (N.to_nat m); reflexivity.
  - destruct (N.zero_or_succ m) as [->|[m' ->]].
    + rewrite N.add_0_r, PositiveMap.gss. reflexivity.
    + rewrite PositiveMap.gso by (intros E; apply succ_pos_inj in E; lia).
      rewrite <- N.add_succ_comm, IH, N2Nat.inj_succ. reflexivity.
Qed.

Record fstate := {
  base : state;
  sidx : pset;                      (* the members of [started base] *)
  didx : PositiveMap.t pset;        (* module |-> the names n with (module, n) in [defined base] *)
}.

Definition empty_fstate : fstate :=
  {| base := empty_state; sidx := PositiveMap.empty unit; didx := PositiveMap.empty pset |}.

Definition names_of (m : N) (s : fstate) : pset :=
  match PositiveMap.find (N.succ_pos m) (didx s) with Some ns => ns | None => PositiveMap.empty unit end.

Definition is_started (m : N) (s : fstate) : bool := pmem m (sidx s).
Definition is_defined (m n : N) (s : fstate) : bool := pmem n (names_of m s).

Definition add_started (m : N) (s : fstate) : fstate :=
  {| base := {| started := m :: started (base s); defined := defined (base s); regs := regs (base s) |};
     sidx := padd m (sidx s); didx := didx s |}.
Definition add_def (m n : N) (s : fstate) : fstate :=
  {| base := {| started := started (base s); defined := (m, n) :: defined (base s); regs := regs (base s) |};
     sidx := sidx s; didx := PositiveMap.add (N.succ_pos m) (padd n (names_of m s)) (didx s) |}.
Definition add_reg (x : N * N * N) (s : fstate) : fstate :=
  {| base := {| started := started (base s); defined := defined (base s); regs := regs (base s) ++ [x] |};
     sidx := sidx s; didx := didx s |}.

Definition indexed (s : fstate) : Prop :=
  (forall m, memN m (started (base s)) = is_started m s) /\
  (forall m n, mem2 m n (defined (base s)) = is_defined m n s).

Lemma indexed_empty : indexed empty_fstate.
Proof.
  split; intros; unfold is_started, is_defined, names_of; simpl.
  - rewrite pmem_empty. reflexivity.
  - rewrite PositiveMap.gempty, pmem_empty. reflexivity.
Qed.

Lemma indexed_started m s : indexed s -> indexed (add_started m s).
Proof.
  intros [Hs Hd]. split; [|exact Hd]. intros a. unfold is_started. simpl.
  rewrite pmem_add, Hs. reflexivity.
Qed.

Lemma indexed_def m n s : indexed s -> indexed (add_def m n s).
Proof.
  intros [Hs Hd]. split; [exact Hs|]. intros a b. unfold is_defined at 1, names_of at 1. simpl.
  rewrite Hd. destruct (N.eqb_spec m a) as [->|H].
  - rewrite PositiveMap.gss, pmem_add, N.eqb_sym. reflexivity.
  - rewrite PositiveMap.gso by (intros E; apply H; symmetry; apply succ_pos_inj, E). reflexivity.
Qed.

Section Load.
  Variable mods : list (list N * list event).
  Variable midx : PositiveMap.t (list N * list event).
  Hypothesis Hidx : forall m, PositiveMap.find (N.succ_pos m) midx = nth_error mods (N.to_nat m).

  Fixpoint load' (fuel : nat) (m : N) (st : fstate) {struct fuel} : result fstate :=
    match fuel with
    | O => Raise OutOfFuel
    | S f =>
        if is_started m st then Ok st
        else
          match PositiveMap.find (N.succ_pos m) midx with
          | None => Raise ImportErr
          | Some (parents, evs) =>
              do st1 <- (fix go (ps : list N) (st : fstate) : result fstate :=
                           match ps with [] => Ok st | p :: r => do st' <- load' f p st; go r st' end) parents st;
              if is_started m st1 then Ok st1
              else
                (fix run (evs : list event) (st : fstate) : result fstate :=
                   match evs with
                   | [] => Ok st
                   | e :: r =>
                       do st' <-
                         match e with
                         | EImport m' names =>
                             do s1 <- load' f m' st;
                             if forallb (fun n => is_defined m' n s1) names then Ok s1 else Raise ImportErr
                         | EDef n => Ok (add_def m n st)
                         | ERegister rg k n => Ok (add_reg (rg, k, n) st)
                         | EImportAll ms =>
                             (fix all (ms : list N) (st : fstate) : result fstate :=
                                match ms with [] => Ok st | x :: r' => do s1 <- load' f x st; all r' s1 end) ms st
                         end;
                       run r st'
                   end) evs (add_started m st1)
          end
    end.

  Definition sim (r : result state) (r' : result fstate) : Prop :=
    match r' with Ok s' => r = Ok (base s') /\ indexed s' | Raise e => r = Raise e end.

  Lemma sim_ok s : indexed s -> sim (Ok (base s)) (Ok s).
  Proof. intros H. split; [reflexivity | exact H]. Qed.

  Lemma sim_bind r r' k k' :
    sim r r' -> (forall s, indexed s -> sim (k (base s)) (k' s)) -> sim (bind r k) (bind r' k').
  Proof.
    destruct r' as [s'|e]; simpl.
    - intros [-> H] Hk. apply Hk, H.
    - intros -> _. reflexivity.
  Qed.

  (* induction on the fuel, and on its list for each of the three inner loops *)
  Theorem load'_sim fuel : forall m s, indexed s -> sim (load mods fuel m (base s)) (load' fuel m s).
  Proof.
    induction fuel as [|f IH]; intros m s H; [reflexivity|]. simpl.
    rewrite (proj1 H m), Hidx. destruct (is_started m s); [apply sim_ok, H|].
    destruct (nth_error mods (N.to_nat m)) as [[parents evs]|]; [|reflexivity].
    apply sim_bind.
    { revert s H. induction parents as [|p r IHr]; intros s H; [apply sim_ok, H|].
      apply sim_bind; [apply IH, H | exact IHr]. }
    clear s H. intros s H. rewrite (proj1 H m). destruct (is_started m s); [apply sim_ok, H|].
    change (Build_state (m :: _) _ _) with (base (add_started m s)).
    apply (indexed_started m) in H. revert H. generalize (add_started m s). clear s.
    induction evs as [|e r IHr]; intros s H; [apply sim_ok, H|].
    apply sim_bind; [|exact IHr]. destruct e as [m' names | n | rg k n | ms].
    - apply sim_bind; [apply IH, H|]. clear s H. intros s H.
      rewrite (forallb_ext _ (fun n => is_defined m' n s) names (proj2 H m')).
      destruct (forallb _ names); [apply sim_ok, H | reflexivity].
    - apply (sim_ok (add_def m n s)), indexed_def, H.
    - apply (sim_ok (add_reg (rg, k, n) s)), H.   (* the indexes do not mention [regs] *)
    - revert s H. induction ms as [|x l IHl]; intros s H; [apply sim_ok, H|].
      apply sim_bind; [apply IH, H | exact IHl].
  Qed.

End Load.

(* [midx] and [fuel] are arguments so that a sweep over m computes them once *)
Definition entry_ok' (midx : PositiveMap.t (list N * list event)) (fuel : nat) (factories : list (N * N))
    (expected : list (N * list N)) (m : N) : bool :=
  match load' midx fuel m empty_fstate with
  | Ok s => forallb (registry_ok factories expected (base s)) [0; 1; 2; 3]
  | Raise _ => false
  end.

Lemma entry_ok'_eq mods factories expected m :
  entry_ok' (index mods) (S (S (length mods))) factories expected m = entry_ok mods factories expected m.
Proof.
  unfold entry_ok', entry_ok, load_top.
  pose proof (load'_sim mods (index mods) (index_from_spec mods 0) (S (S (length mods))) m _ indexed_empty) as H.
  unfold sim in H. change (base empty_fstate) with empty_state in H.
  destruct (load' _ _ m empty_fstate); [destruct H as [H _]|]; rewrite H; reflexivity.
Qed.
