(* Number-keyed association lists: [assocN_last] (the dict built by successive assignment) and [keyed idx], the list
   "number -> object" the rich tables are read through ([cuwp_by_id], [loc_by_id], C07_slots.by_idx, C07_triggers.cby_idx);
   [mapM_range]: position k of a table computed from the numbers 0 .. n-1; at the end, RichCuwpLookup's get_id_by_cuwp
   ([id_by_cuwp_carried], [id_by_cuwp_inv]). *)
From Coq Require Import NArith List Bool Lia PeanoNat.
From RC Require Import lib.Result model.RichCodec.
Import ListNotations.
Local Open Scope list_scope.
Local Open Scope N_scope.

Lemma nth_error_range n k : (k < n)%nat -> nth_error (map N.of_nat (seq 0 n)) k = Some (N.of_nat k).
Proof.
  intros H. rewrite nth_error_map, (nth_error_nth' _ 0%nat) by (rewrite seq_length; exact H).
  rewrite seq_nth by exact H. reflexivity.
Qed.

Lemma mapM_range {B} (f : N -> result B) n r :
  mapM f (map N.of_nat (seq 0 n)) = Ok r <->
  length r = n /\ forall k s, nth_error r k = Some s -> f (N.of_nat k) = Ok s.
Proof.
  rewrite mapM_Forall2. split.
  - intros F. pose proof (Forall2_length _ _ _ F) as Hlen. rewrite map_length, seq_length in Hlen. split; [auto|].
    intros k s Hk. assert (k < n)%nat as Hlt by (rewrite Hlen; apply nth_error_Some; congruence).
    destruct (Forall2_nth_l _ _ _ _ _ F (nth_error_range n k Hlt)) as (b & Hb & Hnb). congruence.
  - intros [<- H]. apply Forall2_of_nth; [rewrite map_length, seq_length; reflexivity|].
    intros k i s Hi Hs. assert (k < length r)%nat as Hlt by (apply nth_error_Some; congruence).
    rewrite (nth_error_range _ _ Hlt) in Hi. injection Hi as <-. auto.
Qed.

Lemma assocN_last_app {A} k (a b : list (N * A)) :
  assocN_last k (a ++ b) = match assocN_last k b with Some x => Some x | None => assocN_last k a end.
Proof.
  induction a as [|[k' v] a IH]; simpl; [destruct (assocN_last k b); reflexivity|].
  rewrite IH. destruct (assocN_last k b); reflexivity.
Qed.

Lemma assocN_last_in {A} k (l : list (N * A)) v : assocN_last k l = Some v -> In (k, v) l.
Proof.
  induction l as [|[k' v'] l IH]; simpl; intros H; [discriminate|].
  destruct (assocN_last k l) as [x|].
  - inversion H; subst. right. apply IH. reflexivity.
  - destruct (N.eqb_spec k k'); [|discriminate]. inversion H; subst. left. reflexivity.
Qed.

Lemma assocN_last_none {A} k (l : list (N * A)) : ~ In k (map fst l) -> assocN_last k l = None.
Proof.
  induction l as [|[k' v] l IH]; simpl; intros H; [reflexivity|].
  rewrite IH by tauto. destruct (N.eqb_spec k k'); [|reflexivity]. subst. tauto.
Qed.

Lemma assocN_last_app_absent {A} k (a b : list (N * A)) : ~ In k (map fst b) -> assocN_last k (a ++ b) = assocN_last k a.
Proof. intros H. rewrite assocN_last_app, (assocN_last_none k b H). reflexivity. Qed.

Lemma assocN_last_some_iff {A} k (l : list (N * A)) : (exists v, assocN_last k l = Some v) <-> In k (map fst l).
Proof.
  split.
  - intros [v H]. apply assocN_last_in in H. apply in_map_iff. exists (k, v). auto.
  - induction l as [|[k' v'] l IH]; simpl; intros H; [destruct H|].
    destruct (assocN_last k l); [eauto|]. destruct (N.eqb_spec k k'); [eauto|].
    destruct H as [->|H]; [congruence | apply IH in H as [? ?]; discriminate].
Qed.

Lemma assocN_last_cons {A} k k' (v : A) l :
  ~ In k' (map fst l) -> assocN_last k ((k', v) :: l) = if k =? k' then Some v else assocN_last k l.
Proof.
  intros H. simpl. destruct (N.eqb_spec k k') as [->|Hne]; [rewrite assocN_last_none by exact H; reflexivity|].
  destruct (assocN_last k l); reflexivity.
Qed.

Lemma assocN_last_unique {A} k (v : A) (l : list (N * A)) :
  NoDup (map fst l) -> In (k, v) l -> assocN_last k l = Some v.
Proof.
  induction l as [|[k' v'] l IH]; intros Hnd Hin; [destruct Hin|]. inversion Hnd as [|? ? Hnot Hnd']; subst.
  rewrite assocN_last_cons by exact Hnot. destruct Hin as [Heq|Hin].
  - inversion Heq; subst. rewrite N.eqb_refl. reflexivity.
  - destruct (N.eqb_spec k k') as [->|_]; [|auto]. exfalso. apply Hnot. apply in_map_iff. exists (k', v). auto.
Qed.

Section Keyed.
  Context {T : Type} (idx : T -> option N).

  Definition keyed (l : list T) : list (N * T) :=
    flat_map (fun x => match idx x with Some i => [(i, x)] | None => [] end) l.

  Lemma keyed_cons x l i : idx x = Some i -> keyed (x :: l) = (i, x) :: keyed l.
  Proof. unfold keyed. simpl. intros ->. reflexivity. Qed.

  Lemma in_keyed l i x : In (i, x) (keyed l) <-> In x l /\ idx x = Some i.
  Proof.
    unfold keyed. rewrite in_flat_map. split.
    - intros (y & Hy & H). destruct (idx y) eqn:E; [|destruct H]. destruct H as [H|[]]. inversion H; subst. auto.
    - intros [H E]. exists x. rewrite E. simpl. auto.
  Qed.

  Lemma keyed_keys l : map fst (keyed l) = flat_map (fun x => match idx x with Some i => [i] | None => [] end) l.
  Proof. unfold keyed. induction l as [|x l IH]; simpl; [reflexivity|]. rewrite map_app, IH. destruct (idx x); reflexivity. Qed.

  Lemma keyed_app a b : keyed (a ++ b) = keyed a ++ keyed b.
  Proof. apply flat_map_app. Qed.

  Lemma keyed_map {U} (f : U -> T) (key : U -> N) l :
    (forall u, idx (f u) = Some (key u)) -> keyed (map f l) = map (fun u => (key u, f u)) l.
  Proof. intros H. induction l as [|u l IH]; [reflexivity|]. cbn [map]. rewrite (keyed_cons _ _ _ (H u)), IH. reflexivity. Qed.

  Lemma keyed_placed {U} (set : U -> N -> T) l (placed : list (U * N)) :
    (forall u i, idx (set u i) = Some i) ->
    keyed (l ++ map (fun p => set (fst p) (snd p)) placed) = keyed l ++ map (fun p => (snd p, set (fst p) (snd p))) placed.
  Proof. intros H. rewrite keyed_app. f_equal. apply keyed_map. intros p. apply H. Qed.
End Keyed.

Lemma loc_by_id_keyed cx i : loc_by_id cx i = if i =? 0 then None else assocN_last i (keyed l_idx (cx_locs cx)).
Proof. reflexivity. Qed.

Lemma cuwp_by_id_keyed cx i : cuwp_by_id cx i = assocN_last i (keyed c_idx (cx_cuwps cx)).
Proof. reflexivity. Qed.

(* RichCuwpLookup.get_id_by_cuwp: the number the set carries when an equal set sits there, else that of the last equal set *)
Lemma id_by_cuwp_carried cx c i k :
  c_idx c = Some i -> cuwp_by_id cx i = Some k -> rcuwp_eqb c k = true -> id_by_cuwp cx c = Ok i.
Proof. unfold id_by_cuwp. intros -> -> ->. reflexivity. Qed.

Lemma id_by_cuwp_inv cx c i :
  id_by_cuwp cx c = Ok i ->
  (exists k, cuwp_by_id cx i = Some k /\ rcuwp_eqb c k = true) \/ find_cuwp_id c (cx_cuwps cx) None = Some i.
Proof.
  unfold id_by_cuwp. intros H.
  assert (of_option KeyError (find_cuwp_id c (cx_cuwps cx) None) = Ok i -> find_cuwp_id c (cx_cuwps cx) None = Some i) as Hf.
  { destruct (find_cuwp_id c (cx_cuwps cx) None); [|discriminate]. intros E. apply Ok_inj in E as ->. reflexivity. }
  destruct (c_idx c) as [ci|]; [|right; exact (Hf H)].
  destruct (cuwp_by_id cx ci) as [k|] eqn:Ek; [|right; exact (Hf H)].
  destruct (rcuwp_eqb c k) eqn:Eq; [|right; exact (Hf H)].
  apply Ok_inj in H as <-. left. exists k. split; [exact Ek | exact Eq].
Qed.
