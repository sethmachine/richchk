(* "The LAST entry that matches wins": RichMrgnLookup / RichCuwpLookup / RichSwnmLookup build their id dictionaries by successive
   assignment, and the model's find_loc_id / find_cuwp_id / find_switch_id are one fold. *)
From Coq Require Import NArith List Bool.
From RC Require Import model.RichCodec.
Import ListNotations.

Definition last_hit {E V} (p : E -> bool) (v : E -> option V) (t : list E) (acc : option V) : option V :=
  fold_left (fun acc e => if p e then v e else acc) t acc.

Lemma find_loc_id_fold l t : forall acc,
  find_loc_id l t acc = last_hit (fun e => rloc_eqb l (fst e)) (fun e => Some (snd e)) t acc.
Proof. induction t as [|[k i] t IH]; intros acc; [reflexivity | apply IH]. Qed.

Lemma find_switch_id_fold s t : forall acc,
  find_switch_id s t acc = last_hit (fun e => rswitch_key_eqb s (fst e)) (fun e => Some (snd e)) t acc.
Proof. induction t as [|[k i] t IH]; intros acc; [reflexivity | apply IH]. Qed.

Lemma find_cuwp_id_fold c t : forall acc, find_cuwp_id c t acc = last_hit (rcuwp_eqb c) c_idx t acc.
Proof. induction t as [|k t IH]; intros acc; [reflexivity | apply IH]. Qed.

Section LastHit.
  Context {E V : Type} (p : E -> bool) (v : E -> option V).

  Lemma last_hit_app a b acc : last_hit p v (a ++ b) acc = last_hit p v b (last_hit p v a acc).
  Proof. apply fold_left_app. Qed.

  Lemma last_hit_none t : forall acc, (forall e, In e t -> p e = false) -> last_hit p v t acc = acc.
  Proof.
    induction t as [|e t IH]; intros acc H; simpl; [reflexivity|].
    rewrite (H e (or_introl eq_refl)). apply IH. intros e' He'. apply H. right. exact He'.
  Qed.

  Lemma last_hit_sound t : forall acc i,
    last_hit p v t acc = Some i -> acc = Some i \/ exists e, In e t /\ p e = true /\ v e = Some i.
  Proof.
    induction t as [|e t IH]; intros acc i H; simpl in H; [left; exact H|].
    apply IH in H as [H|(e' & Hin & He')]; [|right; exists e'; split; [right; exact Hin | exact He']].
    destruct (p e) eqn:Ep; [right; exists e; split; [left; reflexivity | auto] | left; exact H].
  Qed.

  (* when every entry that matches has the value k, and one does, k is found *)
  Lemma last_hit_const t k : forall acc,
    (forall e, In e t -> p e = true -> v e = Some k) ->
    acc = Some k \/ (acc = None /\ exists e, In e t /\ p e = true) ->
    last_hit p v t acc = Some k.
  Proof.
    induction t as [|e t IH]; intros acc Hall Hacc; simpl.
    - destruct Hacc as [->|(_ & e & [] & _)]. reflexivity.
    - apply IH; [intros e' He'; apply Hall; right; exact He'|].
      destruct (p e) eqn:Ep; [left; apply Hall; [left; reflexivity | exact Ep]|].
      destruct Hacc as [->|(-> & e' & [<-|Hin] & Hp)]; [left; reflexivity | congruence |].
      right. split; [reflexivity | exists e'; auto].
  Qed.
End LastHit.
