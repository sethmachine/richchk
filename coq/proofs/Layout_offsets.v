(* "Each decoded field is the little-endian integer at the layout's offset" - generic in the layout. *)
From Coq Require Import String NArith List Bool Lia PeanoNat.
From RC Require Import lib.Result lib.Bytes model.Layout proofs.Layout_proofs.
Import ListNotations.

Lemma locate_inv l s p o r : locate l (s :: p) = Some (o, r) ->
  match l, s with
  | Named g l', SField f => locate l' p = Some (o, r) /\ String.eqb f g = true
  | Seq a b, SField f =>
      if has_field f a then locate a (s :: p) = Some (o, r)
      else exists sa o', size_l a = Some sa /\ locate b (s :: p) = Some (o', r) /\ o = sa + o'
  | Arr n _ l', SIndex i =>
      Nat.ltb i n = true /\ exists sz o', size_l l' = Some sz /\ locate l' p = Some (o', r) /\ o = i * sz + o'
  | Many l', SIndex i => exists sz o', size_l l' = Some sz /\ locate l' p = Some (o', r) /\ o = i * sz + o'
  | Chunk _ l', _ => locate l' (s :: p) = Some (o, r)
  | _, _ => False
  end.
Proof.
  destruct l, s; simpl; try discriminate; auto.
  - destruct (Nat.ltb i n); [|discriminate]. destruct (size_l l) as [sz|]; [|discriminate].
    destruct (locate l p) as [[o' r']|]; [|discriminate]. intros H; inversion H. split; [reflexivity|]. exists sz, o'. auto.
  - destruct (has_field f l1); [auto|]. destruct (size_l l1) as [sa|]; [|discriminate].
    destruct (locate l2 _) as [[o' r']|]; [|discriminate]. intros H; inversion H. exists sa, o'. auto.
  - destruct (String.eqb f0 f); [auto | discriminate].
  - destruct (size_l l) as [sz|]; [|discriminate].
    destruct (locate l p) as [[o' r']|]; [|discriminate]. intros H; inversion H. exists sz, o'. auto.
Qed.

Lemma get_inv l v s p x : get l v (s :: p) = Some x ->
  match l, s with
  | Named g l', SField f => exists h y, v = VNamed h y /\ get l' y p = Some x /\ String.eqb f g = true
  | Seq a b, SField f =>
      exists y z, v = VPair y z /\ (if has_field f a then get a y (s :: p) else get b z (s :: p)) = Some x
  | Arr n _ l', SIndex i =>
      exists vs y, v = VList vs /\ Nat.ltb i n = true /\ nth_error vs i = Some y /\ get l' y p = Some x
  | Many l', SIndex i => exists vs y, v = VList vs /\ nth_error vs i = Some y /\ get l' y p = Some x
  | Chunk _ l', _ => get l' v (s :: p) = Some x
  | _, _ => False
  end.
Proof.
  destruct l, s; simpl; auto; destruct v as [m|vs|y z|h y|]; simpl; try discriminate.
  - destruct (Nat.ltb i n); [|discriminate]. destruct (nth_error vs i) as [y|] eqn:E; [|discriminate]. exists vs, y. auto.
  - eauto.
  - destruct (String.eqb f0 f); [eauto | discriminate].
  - destruct (nth_error vs i) as [y|] eqn:E; [|discriminate]. eauto.
Qed.

Lemma slice_skipn bs k o w : slice (skipn k bs) o w = slice bs (k + o) w.
Proof. unfold slice. rewrite skipn_skipn. reflexivity. Qed.

Lemma slice_app pre rest o w : o + w <= length pre -> slice (pre ++ rest) o w = slice pre o w.
Proof.
  intros H. unfold slice. rewrite skipn_app, firstn_app.
  replace (w - length (skipn o pre)) with 0 by (rewrite skipn_length; lia).
  rewrite firstn_O. apply app_nil_r.
Qed.

Lemma slice_firstn bs sz o w : o + w <= sz -> slice (firstn sz bs) o w = slice bs o w.
Proof.
  intros H. unfold slice. rewrite skipn_firstn_comm, firstn_firstn. f_equal. lia.
Qed.

(* the field a path leads to is the integer at the path's offset, and its bytes lie within the input *)
Definition field_ok (l : layout) : Prop :=
  forall fuel bs v rest p o w x,
    decode_l fuel l bs = Ok (v, rest) -> locate l p = Some (o, Prim w) -> get l v p = Some x ->
    o + w <= length bs /\ x = VInt (le_decode (slice bs o w)).

(* the i-th element of a repetition was decoded from offset i * size *)
Lemma rep_field l sz fuel p o w n bs vs rest :
  field_ok l -> wf_l l = true -> size_l l = Some sz -> locate l p = Some (o, Prim w) ->
  rep_dec (decode_l fuel l) n bs = Ok (vs, rest) ->
  forall i y x, nth_error vs i = Some y -> get l y p = Some x ->
    i * sz + o + w <= length bs /\ x = VInt (le_decode (slice bs (i * sz + o) w)).
Proof.
  intros IH Hwf Hs Hloc H. apply rep_dec_run in H.
  induction H as [|n bs v r vs rest Hv _ IHn]; intros [|i] y x Hn Hget; simpl in Hn; try discriminate.
  - injection Hn as <-. exact (IH _ _ _ _ _ _ _ _ Hv Hloc Hget).
  - pose proof (decode_size _ _ _ _ _ _ Hwf Hs Hv) as Hl.
    rewrite (decode_rest_skipn _ _ _ _ _ _ Hwf Hs Hv) in *. destruct (IHn _ _ _ Hn Hget) as [Hb ->].
    rewrite slice_skipn, skipn_length in *. simpl. rewrite <- !Nat.add_assoc. split; [lia | reflexivity].
Qed.

Theorem field_in_input l : wf_l l = true -> field_ok l.
Proof.
  induction l as [w0|n st l IH|a IHa b IHb|f l IH| |l IH|sz l IH];
    intros Hwf fuel bs v rest p o w x H Hloc Hget; apply decode_l_inv in H; simpl in Hwf.
  (* the empty path stops at the layout itself, a Prim only in the first case; a longer one is taken apart by locate_inv
     and get_inv *)
  all: destruct p as [|s p]; [try discriminate Hloc | apply locate_inv in Hloc; apply get_inv in Hget].
  - (* Prim, the empty path *)
    destruct H as (pre & -> & Hw & ->). inversion Hloc; inversion Hget; subst. unfold slice. simpl.
    rewrite firstn_app_exact, app_length by reflexivity. split; [lia | reflexivity].
  - (* Prim, a longer path *) destruct s; destruct Hloc.
  - (* Arr *) destruct s as [|i]; [destruct Hloc|].
    destruct H as (vs & H & ->). destruct Hloc as (_ & sz & o' & Hs & Hloc & ->).
    destruct Hget as (vs' & y & [= <-] & _ & Hn & Hget).
    exact (rep_field _ _ _ _ _ _ _ _ _ _ (IH Hwf) Hwf Hs Hloc H _ _ _ Hn Hget).
  - (* Seq *) destruct s as [f0|]; [|destruct Hloc].
    destruct H as (va & ra & vb & Ha & Hb & ->). apply andb_true_iff in Hwf as [Hwa Hwb].
    destruct Hget as (y & z & [= <- <-] & Hget).
    destruct (has_field f0 a); [eapply IHa; eauto|]. destruct Hloc as (sa & o' & Hs & Hloc & ->).
    pose proof (decode_size _ _ _ _ _ _ Hwa Hs Ha) as Hl.
    rewrite (decode_rest_skipn _ _ _ _ _ _ Hwa Hs Ha) in Hb.
    destruct (IHb Hwb _ _ _ _ _ _ _ _ Hb Hloc Hget) as [Hbd ->]. rewrite slice_skipn, skipn_length in *.
    split; [lia | reflexivity].
  - (* Named *) destruct s as [f0|]; [|destruct Hloc].
    destruct H as (y & H & ->). destruct Hloc as [Hloc _]. destruct Hget as (h & y' & [= _ <-] & Hget & _).
    eapply IH; eauto.
  - (* Unit *) destruct s; destruct Hloc.
  - (* Many *) destruct s as [|i]; [destruct Hloc|].
    destruct H as (vs & H & -> & _). destruct Hloc as (sz & o' & Hs & Hloc & ->).
    destruct Hget as (vs' & y & [= <-] & Hn & Hget).
    apply andb_true_iff in Hwf as [Hwf _]. apply many_dec_rep in H.
    exact (rep_field _ _ _ _ _ _ _ _ _ _ (IH Hwf) Hwf Hs Hloc H _ _ _ Hn Hget).
  - (* Chunk *) destruct H as (r & H & _). apply wf_Chunk_inv in Hwf as (Hw & _).
    destruct (IH Hw _ _ _ _ (s :: p) _ _ _ H Hloc Hget) as [Hbd ->]. rewrite firstn_length in Hbd.
    rewrite slice_firstn by lia. split; [lia | reflexivity].
Qed.

Theorem field_at_offset l :
  forall fuel bs v rest p o w x, wf_l l = true ->
    decode_l fuel l bs = Ok (v, rest) -> locate l p = Some (o, Prim w) -> get l v p = Some x ->
    x = VInt (le_decode (slice bs o w)).
Proof. intros fuel bs v rest p o w x Hwf H Hloc Hget. eapply field_in_input; eauto. Qed.

(* for writing: what encode emits at the offset is the field's value *)
Theorem encode_at_offset l fuel bs v rest p o w x pre :
  bytes_ok bs -> wf_l l = true -> decode_l fuel l bs = Ok (v, rest) ->
  encode_l l v = Ok pre -> locate l p = Some (o, Prim w) -> get l v p = Some (VInt x) ->
  o + w <= length pre -> le_decode (slice pre o w) = x.
Proof.
  intros Hok Hwf H He Hloc Hget _.
  (* the bytes written, read alone, decode to the same value: the field lies in them *)
  destruct (layout_roundtrip_prefix _ _ _ _ _ Hok Hwf H) as (pre' & _ & He' & Hq).
  rewrite He in He'. inversion He'; subst pre'.
  destruct (field_in_input _ Hwf _ _ _ _ _ _ _ _ Hq Hloc Hget) as [_ Hx]. inversion Hx. reflexivity.
Qed.
