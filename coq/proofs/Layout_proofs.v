(* The layout interpreters, for every layout: one inversion lemma each; a decoder reads a prefix of its input and looks
   at nothing else; a fixed-size layout consumes its size; decode then encode reproduces the consumed bytes; fuel above
   the input's length is never exhausted, and is only fuel; the decoder does not see the strictness flag. *)
From Coq Require Import String NArith List Bool Lia PeanoNat.
From RC Require Import lib.Result lib.Bytes model.Layout.
Import ListNotations.

Lemma decode_l_inv fuel l bs v rest : decode_l fuel l bs = Ok (v, rest) ->
  match l with
  | Prim w => exists pre, bs = pre ++ rest /\ length pre = w /\ v = VInt (le_decode pre)
  | Arr n _ l' => exists vs, rep_dec (decode_l fuel l') n bs = Ok (vs, rest) /\ v = VList vs
  | Seq a b => exists va ra vb,
      decode_l fuel a bs = Ok (va, ra) /\ decode_l fuel b ra = Ok (vb, rest) /\ v = VPair va vb
  | Named f l' => exists x, decode_l fuel l' bs = Ok (x, rest) /\ v = VNamed f x
  | Unit => v = VUnit /\ rest = bs
  | Many l' => exists vs, many_dec (decode_l fuel l') fuel bs = Ok vs /\ v = VList vs /\ rest = []
  | Chunk sz l' => exists r, decode_l fuel l' (firstn sz bs) = Ok (v, r) /\ rest = skipn sz bs
  end.
Proof.
  destruct l; simpl; intros H.
  - inv_bind H as p Hp H. destruct p as [n r]. apply unpack_app_inv in Hp as (pre & -> & <- & ->). inversion H. eauto.
  - inv_bind H as p Hp H. destruct p as [vs r]. inversion H; subst. eauto.
  - inv_bind H as p Hp H. inv_bind H as q Hq H. destruct p as [va ra], q as [vb rb]. inversion H; subst.
    exists va, ra, vb. auto.
  - inv_bind H as p Hp H. destruct p as [x r]. inversion H; subst. eauto.
  - inversion H. auto.
  - inv_bind H as vs Hvs H. inversion H. eauto.
  - inv_bind H as p Hp H. destruct p as [x r]. inversion H; subst. eauto.
Qed.

Lemma encode_l_inv l v bs : encode_l l v = Ok bs <->
  match l with
  | Prim w => exists n, v = VInt n /\ pack w n = Ok bs
  | Arr n st l' => exists vs, v = VList vs /\ (st = true -> length vs = n) /\ enc_list (encode_l l') vs = Ok bs
  | Seq a b => exists x y p q, v = VPair x y /\ encode_l a x = Ok p /\ encode_l b y = Ok q /\ bs = p ++ q
  | Named f l' => exists x, v = VNamed f x /\ encode_l l' x = Ok bs
  | Unit => v = VUnit /\ bs = []
  | Many l' => exists vs, v = VList vs /\ enc_list (encode_l l') vs = Ok bs
  | Chunk _ l' => encode_l l' v = Ok bs
  end.
Proof.
  split.
  - destruct l; simpl; [destruct v as [m|vs|x y|g x|]; try discriminate .. | auto]; intros H.
    + eauto.
    + exists vs. split; [reflexivity|]. destruct strict; simpl in H.
      * destruct (Nat.eqb_spec (length vs) n) as [E|_]; [auto | discriminate].
      * split; [discriminate | exact H].
    + inv_bind H as p Hp H. inv_bind H as q Hq H. inversion H. exists x, y, p, q. auto.
    + destruct (String.eqb_spec f g); [subst; eauto | discriminate].
    + inversion H. auto.
    + eauto.
  - destruct l as [w|n st l|a b|f l| |l|sz l]; simpl.
    + intros (m & -> & H). exact H.
    + intros (vs & -> & Hn & H). destruct st; [rewrite (Hn eq_refl), Nat.eqb_refl|]; exact H.
    + intros (x & y & p & q & -> & Hp & Hq & ->). rewrite Hp, Hq. reflexivity.
    + intros (x & -> & H). rewrite String.eqb_refl. exact H.
    + intros (-> & ->). reflexivity.
    + intros (vs & -> & H). exact H.
    + auto.
Qed.

(* the successful runs of a repetition *)
Inductive rep_run (d : bytes -> result (val * bytes)) : nat -> bytes -> list val -> bytes -> Prop :=
| rep_run_O bs : rep_run d 0 bs [] bs
| rep_run_S n bs v r vs rest : d bs = Ok (v, r) -> rep_run d n r vs rest -> rep_run d (S n) bs (v :: vs) rest.

Lemma rep_dec_run d : forall n bs vs rest, rep_dec d n bs = Ok (vs, rest) -> rep_run d n bs vs rest.
Proof.
  induction n as [|n IH]; intros bs vs rest H; simpl in H.
  - inversion H. constructor.
  - inv_bind H as p Hp H. inv_bind H as q Hq H. destruct p, q. inversion H; subst. econstructor; eauto.
Qed.

Lemma rep_dec_length d n bs vs rest : rep_dec d n bs = Ok (vs, rest) -> length vs = n.
Proof. intros H. apply rep_dec_run in H. induction H; simpl; auto. Qed.

(* a to-the-end loop that returned vs was length vs repetitions that left nothing *)
Lemma many_dec_rep d : forall fu bs vs, many_dec d fu bs = Ok vs -> rep_dec d (length vs) bs = Ok (vs, []).
Proof.
  induction fu as [|fu IH]; intros [|b bs] vs H; simpl in H.
  - inversion H. reflexivity.
  - discriminate.
  - inversion H. reflexivity.
  - inv_bind H as p Hp H. inv_bind H as q Hq H. inversion H. simpl. rewrite Hp. simpl. rewrite (IH _ _ Hq). reflexivity.
Qed.

(* d looks at nothing beyond what it reads: cut off any part of the unread rest, the result is the same *)

Definition reads_prefix {A} (d : bytes -> result (A * bytes)) : Prop :=
  forall bs v rest, d bs = Ok (v, rest) ->
    exists pre, bs = pre ++ rest /\
      forall keep drop, rest = keep ++ drop -> d (pre ++ keep) = Ok (v, keep).

Lemma reads_prefix_ret {A} (a : A) : reads_prefix (fun bs => Ok (a, bs)).
Proof. intros bs v rest H. inversion H. exists []. split; reflexivity. Qed.

(* Prim, Arr and Named are a reader followed by a constructor; Seq and one more repetition are two readers in a row *)
Lemma reads_prefix_map {A B} (d : bytes -> result (A * bytes)) (g : A -> B) :
  reads_prefix d -> reads_prefix (fun bs => do vr <- d bs; Ok (g (fst vr), snd vr)).
Proof.
  intros Hd bs v rest H. inv_bind H as vr Hv H. destruct vr as [a r]. simpl in H. inversion H; subst.
  destruct (Hd _ _ _ Hv) as (pre & -> & Hk). exists pre. split; [reflexivity|].
  intros keep drop E. rewrite (Hk _ _ E). reflexivity.
Qed.

Lemma reads_prefix_seq {A B C} (d1 : bytes -> result (A * bytes)) (d2 : bytes -> result (B * bytes)) (g : A -> B -> C) :
  reads_prefix d1 -> reads_prefix d2 ->
  reads_prefix (fun bs => do a <- d1 bs; do b <- d2 (snd a); Ok (g (fst a) (fst b), snd b)).
Proof.
  intros H1 H2 bs v rest H. inv_bind H as ar Ha H. destruct ar as [a r]. inv_bind H as br Hb H. destruct br as [b r'].
  simpl in *. inversion H; subst. destruct (H2 _ _ _ Hb) as (q & -> & Hq). destruct (H1 _ _ _ Ha) as (p & -> & Hp).
  exists (p ++ q). split; [apply app_assoc|]. intros keep drop ->.
  rewrite <- app_assoc, (Hp (q ++ keep) drop) by apply app_assoc. simpl. rewrite (Hq keep drop eq_refl). reflexivity.
Qed.

Lemma unpack_reads_prefix w : reads_prefix (unpack w).
Proof.
  intros bs v rest H. apply unpack_app_inv in H as (pre & -> & Hw & ->). exists pre. split; [reflexivity|].
  intros keep drop _. apply unpack_app, Hw.
Qed.

Lemma rep_dec_reads_prefix d n : reads_prefix d -> reads_prefix (rep_dec d n).
Proof.
  intros Hd. induction n as [|n IH]; [apply reads_prefix_ret|]. exact (reads_prefix_seq d (rep_dec d n) cons Hd IH).
Qed.

Theorem decode_reads_prefix fuel l : reads_prefix (decode_l fuel l).
Proof.
  induction l as [w|n st l IH|a IHa b IHb|f l IH| |l IH|sz l IH].
  - exact (reads_prefix_map (unpack w) VInt (unpack_reads_prefix w)).
  - exact (reads_prefix_map _ VList (rep_dec_reads_prefix _ n IH)).
  - exact (reads_prefix_seq _ _ VPair IHa IHb).
  - exact (reads_prefix_map _ (VNamed f) IH).
  - apply reads_prefix_ret.
  - intros bs v rest H. apply decode_l_inv in H as (vs & H & -> & ->). exists bs. split; [symmetry; apply app_nil_r|].
    intros keep drop E. symmetry in E. apply app_eq_nil in E as [-> _]. rewrite app_nil_r. simpl. rewrite H. reflexivity.
  - (* either the chunk is whole, and what follows it is not looked at, or nothing follows *)
    intros bs v rest H. apply decode_l_inv in H as (r & H & ->).
    exists (firstn sz bs). split; [symmetry; apply firstn_skipn|].
    intros keep drop E. simpl. destruct (Nat.le_gt_cases sz (length bs)) as [Hl|Hl].
    + rewrite firstn_app_exact, skipn_app_exact, H by (apply firstn_length_le; assumption). reflexivity.
    + rewrite skipn_all2 in E by lia. symmetry in E. apply app_eq_nil in E as [-> _].
      rewrite app_nil_r, firstn_firstn, Nat.min_id, H. simpl. rewrite skipn_all2; [reflexivity|].
      rewrite firstn_length; lia.
Qed.

Corollary decode_shrinks fuel l bs v rest : decode_l fuel l bs = Ok (v, rest) -> length rest <= length bs.
Proof. intros H. destruct (decode_reads_prefix _ _ _ _ _ H) as (pre & -> & _). rewrite app_length. lia. Qed.

Corollary decode_prefix_alone fuel l bs v rest :
  decode_l fuel l bs = Ok (v, rest) -> exists pre, bs = pre ++ rest /\ decode_l fuel l pre = Ok (v, []).
Proof.
  intros H. destruct (decode_reads_prefix _ _ _ _ _ H) as (pre & -> & Hk). exists pre. split; [reflexivity|].
  rewrite <- (app_nil_r pre) at 1. apply (Hk [] rest). reflexivity.
Qed.

Lemma rep_dec_size d n s bs vs rest :
  (forall bs v rest, d bs = Ok (v, rest) -> length bs = s + length rest) ->
  rep_dec d n bs = Ok (vs, rest) -> length bs = n * s + length rest.
Proof.
  intros Hd H. apply rep_dec_run in H. induction H as [|n bs v r vs rest Hv _ IH]; [reflexivity|].
  apply Hd in Hv. lia.
Qed.

Lemma wf_Chunk_inv sz l : wf_l (Chunk sz l) = true -> wf_l l = true /\ size_l l = Some sz /\ sz <> 0.
Proof.
  simpl. intros H. apply andb_true_iff in H as [Hw H]. destruct (size_l l) as [s|]; [|discriminate].
  apply andb_true_iff in H as [E Hz]. apply Nat.eqb_eq in E. apply negb_true_iff, Nat.eqb_neq in Hz. subst. auto.
Qed.

Lemma decode_size l :
  forall fuel bs v rest s, wf_l l = true -> size_l l = Some s ->
    decode_l fuel l bs = Ok (v, rest) -> length bs = s + length rest.
Proof.
  induction l as [w|n st l IH|a IHa b IHb|f l IH| |l IH|sz l IH]; intros fuel bs v rest s Hwf Hs H;
    apply decode_l_inv in H; simpl in Hs.
  - destruct H as (pre & -> & Hw & _). inversion Hs; subst. apply app_length.
  - destruct H as (vs & H & _). destruct (size_l l) as [sl|]; inversion Hs.
    eapply rep_dec_size; eauto.
  - destruct H as (va & ra & vb & Ha & Hb & _). simpl in Hwf. apply andb_true_iff in Hwf as [Hwa Hwb].
    destruct (size_l a) as [sa|], (size_l b) as [sb|]; inversion Hs.
    rewrite (IHa _ _ _ _ _ Hwa eq_refl Ha), (IHb _ _ _ _ _ Hwb eq_refl Hb). lia.
  - destruct H as (x & H & _). eauto.
  - destruct H as (_ & ->). inversion Hs. reflexivity.
  - discriminate.
  - destruct H as (r & H & ->). apply wf_Chunk_inv in Hwf as (Hw & El & _). inversion Hs; subst s.
    apply (IH _ _ _ _ _ Hw El) in H. rewrite firstn_length in H. rewrite skipn_length. lia.
Qed.

Corollary decode_rest_skipn l fuel bs v rest s :
  wf_l l = true -> size_l l = Some s -> decode_l fuel l bs = Ok (v, rest) -> rest = skipn s bs.
Proof.
  intros Hwf Hs H. pose proof (decode_size _ _ _ _ _ _ Hwf Hs H) as Hl.
  destruct (decode_reads_prefix _ _ _ _ _ H) as (pre & -> & _). rewrite app_length in Hl.
  symmetry. apply skipn_app_exact. lia.
Qed.

(* e writes the bytes that d has read *)
Definition writes_back (d : bytes -> result (val * bytes)) (e : val -> result bytes) : Prop :=
  forall bs v rest, bytes_ok bs -> d bs = Ok (v, rest) -> exists pre, e v = Ok pre /\ pre ++ rest = bs.

Lemma rep_dec_roundtrip d e n bs vs rest : writes_back d e ->
  rep_dec d n bs = Ok (vs, rest) -> bytes_ok bs -> exists pre, enc_list e vs = Ok pre /\ pre ++ rest = bs.
Proof.
  intros Hrt H. apply rep_dec_run in H. induction H as [|n bs v r vs rest Hv _ IH]; intros Hok.
  - exists []. auto.
  - destruct (Hrt _ _ _ Hok Hv) as (p1 & E1 & <-). apply bytes_ok_app_inv in Hok as [_ Hok].
    destruct (IH Hok) as (p2 & E2 & <-).
    exists (p1 ++ p2). simpl. rewrite E1, E2. split; [reflexivity | symmetry; apply app_assoc].
Qed.

Theorem layout_roundtrip l :
  forall fuel bs v rest, bytes_ok bs -> wf_l l = true ->
    decode_l fuel l bs = Ok (v, rest) ->
    exists pre, encode_l l v = Ok pre /\ pre ++ rest = bs.
Proof.
  induction l as [w|n st l IH|a IHa b IHb|f l IH| |l IH|sz l IH]; intros fuel bs v rest Hok Hwf H;
    apply decode_l_inv in H; simpl in Hwf.
  - destruct H as (pre & -> & Hw & ->). apply bytes_ok_app_inv in Hok as [Hok _].
    exists pre. split; [apply pack_decode; assumption | reflexivity].
  - destruct H as (vs & H & ->).
    assert (Hrt : writes_back (decode_l fuel l) (encode_l l)) by (intros bs' v' r' Hok'; apply IH; assumption).
    destruct (rep_dec_roundtrip _ _ _ _ _ _ Hrt H Hok) as (pre & E & A).
    exists pre. split; [|exact A]. apply encode_l_inv. exists vs. eauto using rep_dec_length.
  - destruct H as (va & ra & vb & Ha & Hb & ->). apply andb_true_iff in Hwf as [Hwa Hwb].
    destruct (IHa _ _ _ _ Hok Hwa Ha) as (p & Ep & <-). apply bytes_ok_app_inv in Hok as [_ Hok].
    destruct (IHb _ _ _ _ Hok Hwb Hb) as (q & Eq & <-).
    exists (p ++ q). split; [|symmetry; apply app_assoc]. apply encode_l_inv. exists va, vb, p, q. auto.
  - destruct H as (x & H & ->). destruct (IH _ _ _ _ Hok Hwf H) as (pre & E & A).
    exists pre. split; [|exact A]. apply encode_l_inv. eauto.
  - destruct H as (-> & ->). exists []. auto.
  - destruct H as (vs & H & -> & ->). apply andb_true_iff in Hwf as [Hw _]. apply many_dec_rep in H.
    assert (Hrt : writes_back (decode_l fuel l) (encode_l l)) by (intros bs' v' r' Hok'; apply IH; assumption).
    destruct (rep_dec_roundtrip _ _ _ _ _ _ Hrt H Hok) as (pre & E & A).
    exists pre. split; [|exact A]. apply encode_l_inv. eauto.
  - (* the body, being of the chunk's size, left nothing of the chunk *)
    destruct H as (r & H & ->). apply wf_Chunk_inv in Hwf as (Hw & El & _).
    pose proof (decode_size _ _ _ _ _ _ Hw El H) as Hl. rewrite firstn_length in Hl.
    destruct r; [|simpl in Hl; lia].
    destruct (IH _ _ _ _ (bytes_ok_firstn sz bs Hok) Hw H) as (pre & E & A). rewrite app_nil_r in A. subst pre.
    exists (firstn sz bs). split; [assumption | apply firstn_skipn].
Qed.

Corollary section_roundtrip l payload v :
  bytes_ok payload -> wf_l l = true ->
  decode_l (S (length payload)) l payload = Ok (v, []) -> encode_l l v = Ok payload.
Proof.
  intros Hok Hwf H. destruct (layout_roundtrip _ _ _ _ _ Hok Hwf H) as (pre & E & A).
  rewrite app_nil_r in A. congruence.
Qed.

Corollary layout_roundtrip_prefix l fuel bs v rest :
  bytes_ok bs -> wf_l l = true -> decode_l fuel l bs = Ok (v, rest) ->
  exists pre, bs = pre ++ rest /\ encode_l l v = Ok pre /\ decode_l fuel l pre = Ok (v, []).
Proof.
  intros Hok Hwf H. destruct (layout_roundtrip _ _ _ _ _ Hok Hwf H) as (pre & E & A).
  destruct (decode_prefix_alone _ _ _ _ _ H) as (pre' & E' & Hpre). rewrite <- A in E'. apply app_inv_tail in E'. subst pre'.
  exists pre. auto.
Qed.

Lemma rep_dec_no_oof d n m :
  (forall bs, length bs <= m -> d bs <> Raise OutOfFuel) ->
  (forall bs v r, d bs = Ok (v, r) -> length r <= length bs) ->
  forall bs, length bs <= m -> rep_dec d n bs <> Raise OutOfFuel.
Proof.
  intros Hd Hs. induction n as [|n IH]; intros bs Hl H; simpl in H; [discriminate|].
  apply bind_raise_inv in H as [H | ([v r] & Hv & H)]; [exact (Hd _ Hl H)|].
  apply bind_ret_raise_inv in H. apply Hs in Hv. apply (IH r); [simpl in *; lia | exact H].
Qed.

Lemma many_dec_no_oof d s m :
  (forall bs, length bs <= m -> d bs <> Raise OutOfFuel) ->
  (forall bs v rest, d bs = Ok (v, rest) -> length bs = S s + length rest) ->
  forall fu bs, length bs < fu -> length bs <= m -> many_dec d fu bs <> Raise OutOfFuel.
Proof.
  intros Hd Hs. induction fu as [|fu IH]; intros bs Hl Hm H; [lia|].
  destruct bs as [|b0 bs0]; simpl in H; [discriminate|].
  apply bind_raise_inv in H as [H | ([v r] & Hv & H)]; [exact (Hd _ Hm H)|].
  apply bind_ret_raise_inv in H. apply Hs in Hv. apply (IH r); [| |exact H]; simpl in *; lia.
Qed.

Theorem decode_no_oof l :
  forall fuel bs, wf_l l = true -> length bs < fuel -> decode_l fuel l bs <> Raise OutOfFuel.
Proof.
  induction l as [w|n st l IH|a IHa b IHb|f l IH| |l IH|sz l IH]; intros fuel bs Hwf Hf H;
    cbn [decode_l] in H; cbn [wf_l] in Hwf.
  - apply bind_ret_raise_inv, unpack_raises in H. discriminate.
  - apply bind_ret_raise_inv in H. revert H. apply (rep_dec_no_oof _ _ (length bs)); [| |lia].
    + intros bs' Hl'. apply IH; [assumption | lia].
    + intros bs' v r. apply decode_shrinks.
  - apply andb_true_iff in Hwf as [Hwa Hwb].
    apply bind_raise_inv in H as [H | ([va ra] & Ha & H)]; [exact (IHa _ _ Hwa Hf H)|].
    apply bind_ret_raise_inv in H. apply decode_shrinks in Ha.
    apply (IHb fuel ra); [assumption | simpl in *; lia | exact H].
  - apply bind_ret_raise_inv in H. exact (IH _ _ Hwf Hf H).
  - discriminate.
  - apply andb_true_iff in Hwf as [Hw Hsz]. destruct (size_l l) as [[|s]|] eqn:El; try discriminate.
    apply bind_ret_raise_inv in H. revert H. apply (many_dec_no_oof _ s (length bs)); [| |lia|lia].
    + intros bs' Hl'. apply IH; [assumption | lia].
    + intros bs' v r H'. eapply decode_size; eauto.
  - apply andb_true_iff in Hwf as [Hw _]. apply bind_ret_raise_inv in H.
    apply (IH fuel (firstn sz bs)); [assumption | rewrite firstn_length; lia | exact H].
Qed.

Lemma bind_oof_or {A B} (r : result A) (f : A -> result B) a b :
  r = Raise OutOfFuel \/ r = Ok a -> f a = Raise OutOfFuel \/ f a = Ok b ->
  bind r f = Raise OutOfFuel \/ bind r f = Ok b.
Proof. intros [->| ->]; simpl; auto. Qed.

Lemma rep_dec_fuel d1 d2 :
  (forall bs x, d1 bs = Ok x -> d2 bs = Raise OutOfFuel \/ d2 bs = Ok x) ->
  forall n bs x, rep_dec d1 n bs = Ok x -> rep_dec d2 n bs = Raise OutOfFuel \/ rep_dec d2 n bs = Ok x.
Proof.
  intros Hd. induction n as [|n IH]; intros bs x H; simpl in *; [auto|].
  inv_bind H as p Hp H. inv_bind H as q Hq H. eapply bind_oof_or; [eauto|]. eapply bind_oof_or; eauto.
Qed.

Lemma many_dec_fuel d1 d2 :
  (forall bs x, d1 bs = Ok x -> d2 bs = Raise OutOfFuel \/ d2 bs = Ok x) ->
  forall f1 f2 bs x, many_dec d1 f1 bs = Ok x -> many_dec d2 f2 bs = Raise OutOfFuel \/ many_dec d2 f2 bs = Ok x.
Proof.
  intros Hd. induction f1 as [|f1 IH]; intros [|f2] [|b bs] x H; simpl in *; auto; try discriminate.
  inv_bind H as p Hp H. inv_bind H as q Hq H. eapply bind_oof_or; [eauto|]. eapply bind_oof_or; eauto.
Qed.

(* fuel is only fuel: what one run returns, every other run returns too unless its fuel runs out *)
Theorem decode_fuel l : forall f1 f2 bs x,
  decode_l f1 l bs = Ok x -> decode_l f2 l bs = Raise OutOfFuel \/ decode_l f2 l bs = Ok x.
Proof.
  induction l as [w|n st l IH|a IHa b IHb|f l IH| |l IH|sz l IH]; intros f1 f2 bs x H; cbn [decode_l] in *; auto.
  - inv_bind H as p Hp H. eapply bind_oof_or; [eapply (rep_dec_fuel (decode_l f1 l)); eauto | auto].
  - inv_bind H as p Hp H. inv_bind H as q Hq H. eapply bind_oof_or; [eauto|]. eapply bind_oof_or; eauto.
  - inv_bind H as p Hp H. eapply bind_oof_or; eauto.
  - inv_bind H as p Hp H. eapply bind_oof_or; [eapply (many_dec_fuel (decode_l f1 l)); eauto | auto].
  - inv_bind H as p Hp H. eapply bind_oof_or; eauto.
Qed.

Corollary decode_fuel_enough l f1 f2 bs x :
  wf_l l = true -> length bs < f2 -> decode_l f1 l bs = Ok x -> decode_l f2 l bs = Ok x.
Proof.
  intros Hwf Hl H. destruct (decode_fuel l f1 f2 bs x H) as [E|E]; [|exact E].
  destruct (decode_no_oof l f2 bs Hwf Hl E).
Qed.

Lemma size_erase l : size_l (erase l) = size_l l.
Proof.
  induction l as [w|n st l IH|a IHa b IHb|f l IH| |l IH|sz l IH]; simpl; try reflexivity.
  - rewrite IH. reflexivity.
  - rewrite IHa, IHb. reflexivity.
  - exact IH.
Qed.

Lemma rep_dec_ext d1 d2 n : (forall bs, d1 bs = d2 bs) -> forall bs, rep_dec d1 n bs = rep_dec d2 n bs.
Proof.
  intros H. induction n as [|n IH]; intros bs; simpl; [reflexivity|].
  rewrite H. destruct (d2 bs) as [[v r]|e]; simpl; [|reflexivity]. rewrite IH. reflexivity.
Qed.

Lemma many_dec_ext d1 d2 fu : (forall bs, d1 bs = d2 bs) -> forall bs, many_dec d1 fu bs = many_dec d2 fu bs.
Proof.
  intros H. induction fu as [|fu IH]; intros [|b bs]; simpl; try reflexivity.
  rewrite H. destruct (d2 (b :: bs)) as [[v r]|e]; simpl; [|reflexivity]. rewrite IH. reflexivity.
Qed.

Lemma decode_erase l : forall fuel bs, decode_l fuel (erase l) bs = decode_l fuel l bs.
Proof.
  induction l as [w|n st l IH|a IHa b IHb|f l IH| |l IH|sz l IH]; intros fuel bs; simpl; try reflexivity.
  - rewrite (rep_dec_ext _ (decode_l fuel l)); [reflexivity | intros; apply IH].
  - rewrite IHa. destruct (decode_l fuel a bs) as [[v r]|e]; simpl; [|reflexivity]. rewrite IHb. reflexivity.
  - rewrite IH. reflexivity.
  - rewrite (many_dec_ext _ (decode_l fuel l)); [reflexivity | intros; apply IH].
  - rewrite IH. reflexivity.
Qed.

Lemma layout_eqb_eq a : forall b, layout_eqb a b = true -> a = b.
Proof.
  induction a as [w|n st l IH|a1 IH1 a2 IH2|f l IH| |l IH|sz l IH]; intros b H; destruct b; simpl in H;
    try discriminate.
  - apply Nat.eqb_eq in H. subst. reflexivity.
  - apply andb_true_iff in H as [H H3]. apply andb_true_iff in H as [H1 H2].
    apply Nat.eqb_eq in H1. apply Bool.eqb_prop in H2. subst. f_equal. apply IH. assumption.
  - apply andb_true_iff in H as [H1 H2]. f_equal; [apply IH1 | apply IH2]; assumption.
  - apply andb_true_iff in H as [H1 H2]. apply String.eqb_eq in H1. subst. f_equal. apply IH. assumption.
  - reflexivity.
  - f_equal. apply IH. assumption.
  - apply andb_true_iff in H as [H1 H2]. apply Nat.eqb_eq in H1. subst. f_equal. apply IH. assumption.
Qed.
