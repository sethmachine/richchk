(* The location and unit-property tables as slot tables (SlotTable): the slot decoders, the equations putting the model's
   decoders and encoders into that form, what an encoded slot is ([loc_encode_inv], [cuwp_encode_inv]), the slot-usage table
   ([upus_rebuild_inv]).  SWNM and WAV as lists of string numbers ([swnm_encode_inv], [wav_encode_inv], [swnm_decode_in])
   paired with their positions ([numbered]). *)
From Coq Require Import String NArith List Bool Lia.
From Coq Require FinFun.
From RC Require Import lib.Result model.Layout model.Flags model.RichCodec proofs.Keyed proofs.SlotTable gen.GenFlags
  gen.GenConsts.
Import ListNotations.
Local Open Scope string_scope.
Local Open Scope list_scope.
Local Open Scope N_scope.

Definition loc_dec1 (L : str_lookup) (v : val) (i : N) : result rloc :=
  do el <- flags_of elevation_flags_codec (vint "_elevation_flags" v);
  Ok {| l_x1 := vint "_left_x1" v; l_y1 := vint "_top_y1" v; l_x2 := vint "_right_x2" v; l_y2 := vint "_bottom_y2" v;
        l_name := str_by_id L (vint "_string_id" v); l_idx := Some i; l_elev := el; l_oid := 0 |}.

Definition cuwp_dec1 (v : val) (i : N) : result rcuwp :=
  do vs' <- flags_of cuwp_valid_special_flags_codec (vint "_valid_special_properties_flags" v);
  do vu <- flags_of cuwp_valid_unit_flags_codec (vint "_valid_unit_properties_flags" v);
  do fl <- flags_of cuwp_unit_property_flags_codec (vint "_flags" v);
  Ok {| c_hp := vint "_hitpoints_percentage" v; c_sh := vint "_shieldpoints_percentage" v;
        c_en := vint "_energypoints_percentage" v; c_res := vint "_resource_amount" v;
        c_hang := vint "_units_in_hangar" v; c_flags := firstn 5 fl; c_vs := vs'; c_vu := vu;
        c_unk := nth 5 fl false; c_pad := vint "_padding" v; c_idx := Some i |}.

Lemma loc_dec1_idx L v i x : loc_dec1 L v i = Ok x -> l_idx x = Some i.
Proof. unfold loc_dec1. intros H. inv_bind H as el Hel H. apply Ok_inj in H as <-. reflexivity. Qed.

Lemma loc_dec1_name L v i x : loc_dec1 L v i = Ok x -> l_name x = str_by_id L (vint "_string_id" v).
Proof. unfold loc_dec1. intros H. inv_bind H as el Hel H. apply Ok_inj in H as <-. reflexivity. Qed.

Lemma cuwp_dec1_idx v i x : cuwp_dec1 v i = Ok x -> c_idx x = Some i.
Proof.
  unfold cuwp_dec1. intros H. inv_bind H as a Ha H. inv_bind H as b Hb H. inv_bind H as c Hc H.
  apply Ok_inj in H as <-. reflexivity.
Qed.

Lemma loc_encode_inv L l v :
  loc_encode L l = Ok v <->
  exists sid fl, id_by_str L (l_name l) = Ok sid /\ flags_to elevation_flags_codec (l_elev l) = Ok fl /\
    v = mk_struct [("_left_x1", VInt (l_x1 l)); ("_top_y1", VInt (l_y1 l)); ("_right_x2", VInt (l_x2 l));
                   ("_bottom_y2", VInt (l_y2 l)); ("_string_id", VInt sid); ("_elevation_flags", VInt fl)].
Proof.
  unfold loc_encode. split.
  - intros H. inv_bind H as sid Hsid H. inv_bind H as fl Hfl H. apply Ok_inj in H as <-. eauto.
  - intros (sid & fl & -> & -> & ->). reflexivity.
Qed.

Lemma cuwp_encode_inv c v :
  cuwp_encode c = Ok v <->
  exists a b f,
    flags_to cuwp_valid_special_flags_codec (c_vs c) = Ok a /\ flags_to cuwp_valid_unit_flags_codec (c_vu c) = Ok b /\
    flags_to cuwp_unit_property_flags_codec (c_flags c ++ [c_unk c]) = Ok f /\
    v = mk_struct [("_valid_special_properties_flags", VInt a); ("_valid_unit_properties_flags", VInt b);
                   ("_owner_player", VInt 0); ("_hitpoints_percentage", VInt (c_hp c));
                   ("_shieldpoints_percentage", VInt (c_sh c)); ("_energypoints_percentage", VInt (c_en c));
                   ("_resource_amount", VInt (c_res c)); ("_units_in_hangar", VInt (c_hang c));
                   ("_flags", VInt f); ("_padding", VInt (c_pad c))].
Proof.
  unfold cuwp_encode. split.
  - intros H. inv_bind H as a Ha H. inv_bind H as b Hb H. inv_bind H as f Hf H. apply Ok_inj in H as <-.
    exists a, b, f. auto.
  - intros (a & b & f & -> & -> & -> & ->). reflexivity.
Qed.

Lemma mrgn_decode_locs_walk L : forall vs i, mrgn_decode_locs L vs i = walk loc_is_unused (loc_dec1 L) vs i.
Proof.
  induction vs as [|v r IH]; intros i; [reflexivity|]. cbn [mrgn_decode_locs walk]. rewrite IH.
  destruct (walk _ _ r (i + 1)); [|reflexivity]. cbn [bind]. destruct (loc_is_unused v); [reflexivity|].
  unfold loc_dec1. destruct (flags_of _ _); reflexivity.
Qed.

Lemma uprp_decode_slots_walk : forall vs i, uprp_decode_slots vs i = walk cuwp_is_unused cuwp_dec1 vs i.
Proof.
  induction vs as [|v r IH]; intros i; [reflexivity|]. cbn [uprp_decode_slots walk]. rewrite IH.
  destruct (walk _ _ r (i + 1)); [|reflexivity]. cbn [bind]. destruct (cuwp_is_unused v); [reflexivity|].
  unfold cuwp_dec1. repeat (destruct (flags_of _ _); [cbn [bind]|reflexivity]). reflexivity.
Qed.

Lemma mrgn_decode_walk L slots :
  mrgn_decode L (mk_struct [("_locations", VList slots)]) = walk loc_is_unused (loc_dec1 L) slots 0.
Proof. apply mrgn_decode_locs_walk. Qed.

Lemma uprp_decode_walk slots :
  uprp_decode (mk_struct [("_cuwp_slots", VList slots)]) = walk cuwp_is_unused cuwp_dec1 slots 0.
Proof. apply uprp_decode_slots_walk. Qed.

Definition loc_table (L : str_lookup) := table l_idx (loc_encode L) empty_loc_val (N.to_nat MRGN_TRANSCODER_MAX_LOCATIONS).
Definition cuwp_table := table c_idx cuwp_encode empty_cuwp_val (N.to_nat MAX_CUWP_SLOTS).

Lemma mrgn_encode_table L ls :
  mrgn_encode L ls = do slots <- loc_table L ls; Ok (mk_struct [("_locations", VList slots)]).
Proof. reflexivity. Qed.

Lemma uprp_encode_table cs :
  uprp_encode cs = if existsb (fun c => match c_idx c with None => true | Some _ => false end) cs then Raise AssertionError
                   else do slots <- cuwp_table cs; Ok (mk_struct [("_cuwp_slots", VList slots)]).
Proof. reflexivity. Qed.

Lemma mrgn_encode_inv L ls v : mrgn_encode L ls = Ok v ->
  exists slots, loc_table L ls = Ok slots /\ v = mk_struct [("_locations", VList slots)].
Proof. rewrite mrgn_encode_table. intros H. inv_bind H as slots Hs H. apply Ok_inj in H as <-. eauto. Qed.

Lemma uprp_encode_inv cs v : uprp_encode cs = Ok v ->
  (forall c, In c cs -> c_idx c <> None) /\
  exists slots, cuwp_table cs = Ok slots /\ v = mk_struct [("_cuwp_slots", VList slots)].
Proof.
  rewrite uprp_encode_table. destruct (existsb _ cs) eqn:E; [discriminate|]. intros H. split.
  - intros c Hc Hn. apply Bool.not_true_iff_false in E. apply E. apply existsb_exists. exists c. rewrite Hn. auto.
  - inv_bind H as slots Hs H. apply Ok_inj in H as <-. eauto.
Qed.

(* the slot-usage table: byte k says whether some set carries the number k+1 *)
Lemma upus_rebuild_inv cs us :
  upus_rebuild cs = Ok us ->
  us = mk_struct [("_cuwp_slots_used",
                   VList (map (fun i => VInt (if existsb (N.eqb (i + 1)) (map fst (keyed c_idx cs)) then 1 else 0))
                              (map N.of_nat (seq 0 (N.to_nat MAX_CUWP_SLOTS)))))].
Proof.
  unfold upus_rebuild. destruct (existsb _ cs); [discriminate|]. destruct (existsb _ cs); [discriminate|].
  intros H. apply Ok_inj in H as <-. rewrite keyed_keys. reflexivity.
Qed.

Lemma swnm_decode_in by_id v ss x : swnm_decode by_id v = Ok ss -> In x ss -> exists k, In (k, x) by_id.
Proof.
  unfold swnm_decode. intros H Hx. destruct (mapM_in _ _ _ _ H Hx) as (i & k & _ & Hf). cbv beta in Hf.
  destruct (assocN_last k by_id) as [s0|] eqn:Es; [|discriminate Hf]. apply Ok_inj in Hf as ->.
  exists k. apply assocN_last_in. exact Es.
Qed.

Lemma swnm_encode_inv L ss v :
  swnm_encode L ss = Ok v ->
  exists ids, mapM (fun s => id_by_str L (s_name s)) ss = Ok ids /\ v = mk_struct [("_switch_string_ids", VList (map VInt ids))].
Proof. unfold swnm_encode. intros H. inv_bind H as ids Hids H. apply Ok_inj in H as <-. eauto. Qed.

(* slot i holds the path of the last sound given the number i *)
Lemma wav_encode_inv L ws v :
  wav_encode L ws = Ok v ->
  exists ids,
    mapM (fun i => match assocN_last i (map (fun w => (snd w, fst w)) ws) with
                   | Some p => id_by_str L p
                   | None => Ok UNUSED_WAV_STRING_ID
                   end) (map N.of_nat (seq 0 (N.to_nat MAX_WAV_FILES))) = Ok ids /\
    v = mk_struct [("_wav_string_ids", VList (map VInt ids))].
Proof. unfold wav_encode. intros H. inv_bind H as ids Hids H. apply Ok_inj in H as <-. eauto. Qed.

Fixpoint numbered (ids : list N) (k : N) : list (N * N) :=
  match ids with [] => [] | sid :: r => (k, sid) :: numbered r (k + 1) end.

Lemma numbered_nth : forall ids k j,
  nth_error (numbered ids k) j = option_map (fun sid => (k + N.of_nat j, sid)) (nth_error ids j).
Proof.
  induction ids as [|x r IH]; intros k [|j]; cbn [numbered nth_error option_map]; try reflexivity.
  - rewrite N.add_0_r. reflexivity.
  - rewrite IH. destruct (nth_error r j); [|reflexivity]. cbn [option_map]. do 2 f_equal. lia.
Qed.

Lemma numbered_keys : forall ids k, map fst (numbered ids k) = map (fun j => k + N.of_nat j) (seq 0 (length ids)).
Proof.
  induction ids as [|x r IH]; intros k; [reflexivity|]. cbn [numbered map fst length seq]. rewrite N.add_0_r. f_equal.
  rewrite IH, <- seq_shift, map_map. apply map_ext. intros j. lia.
Qed.

Lemma swnm_lookup_numbered L v :
  swnm_lookup L v = map (fun p => (fst p, {| s_name := str_by_id L (snd p); s_idx := Some (fst p); s_oid := 0 |}))
                        (numbered (vints "_switch_string_ids" v) 0).
Proof.
  unfold swnm_lookup.
  (* the model's local fix is generalised over its counter, which starts at 0 *)
  match goal with |- ?go _ 0 = map ?F _ => enough (forall ids k, go ids k = map F (numbered ids k)) as G by apply G end.
  induction ids as [|x r IH]; intros k; [reflexivity|]. cbn [numbered map fst snd]. rewrite <- IH. reflexivity.
Qed.

Lemma swnm_lookup_keys_nodup L v : NoDup (map fst (swnm_lookup L v)).
Proof.
  rewrite swnm_lookup_numbered, map_map. cbn [fst]. change (fun x : N * N => fst x) with (@fst N N). rewrite numbered_keys.
  apply FinFun.Injective_map_NoDup; [|apply seq_NoDup]. intros a b H. lia.
Qed.

Lemma wav_decode_numbered L v :
  wav_decode L v = flat_map (fun p => if snd p =? UNUSED_WAV_STRING_ID then [] else [(str_by_id L (snd p), fst p)])
                            (numbered (vints "_wav_string_ids" v) 0).
Proof.
  unfold wav_decode.
  match goal with |- ?go _ 0 = flat_map ?F _ => enough (forall ids k, go ids k = flat_map F (numbered ids k)) as G by apply G end.
  induction ids as [|x r IH]; intros k; [reflexivity|]. cbn [numbered flat_map fst snd]. rewrite <- IH.
  destruct (x =? UNUSED_WAV_STRING_ID); reflexivity.
Qed.
