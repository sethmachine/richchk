(* C11 / C04, whole map, string references: every string number that RichChkIo.encode_chk writes into the location table,
   the switch-name table and the sound table refers to an entry of the string table it emits alongside (or is 0); and the
   number in a location slot reads back - through that emitted table's own id -> text lookup - as exactly the name it was
   written for (the switch-name and sound tables read back: C04_switches, C04_wavs). *)
From Coq Require Import String NArith List Bool Lia PeanoNat.
From RC Require Import lib.Result lib.Bytes model.Layout model.Str model.StrEditor model.ChkIo model.TrigTable
  model.RichCodec model.RichIo proofs.Save_sizes proofs.C08_proofs proofs.Save_strings proofs.Keyed proofs.SlotTable proofs.RichTables
  proofs.Save_shape proofs.C11_proofs gen.GenConsts.
Import ListNotations.
Local Open Scope string_scope.
Local Open Scope list_scope.
Local Open Scope N_scope.

Definition valid_sid (L : str_lookup) (i : N) : Prop := i = 0 \/ (1 <= i /\ i <= N.of_nat (length (sl_by_id L))).

Section Valid.
  Variable L : str_lookup.
  Hypothesis Hs : N.of_nat (length (sl_by_id L)) <= 1000000.

  Lemma id_by_str_valid s i : id_by_str L s = Ok i -> valid_sid L i.
  Proof. intros H. exact (proj2 (id_by_str_resolves L s i Hs H)). Qed.

  Lemma swnm_ids_are_valid ss v : swnm_encode L ss = Ok v -> Forall (valid_sid L) (vints "_switch_string_ids" v).
  Proof.
    intros H. destruct (swnm_encode_inv _ _ _ H) as (ids & Hids & ->). rewrite vints_single.
    eapply mapM_forall; [|exact Hids]. intros s i. apply id_by_str_valid.
  Qed.

  Lemma wav_ids_are_valid ws v : wav_encode L ws = Ok v -> Forall (valid_sid L) (vints "_wav_string_ids" v).
  Proof.
    intros H. destruct (wav_encode_inv _ _ _ H) as (ids & Hids & ->). rewrite vints_single.
    eapply mapM_forall; [|exact Hids]. intros j i Hf. cbv beta in Hf.
    destruct (assocN_last j _) as [p|]; [eapply id_by_str_valid; eauto | apply Ok_inj in Hf as <-; left; reflexivity].
  Qed.

  Lemma loc_name_id_is_valid l v : loc_encode L l = Ok v ->
    str_by_id L (vint "_string_id" v) = l_name l /\ valid_sid L (vint "_string_id" v).
  Proof.
    intros H. destruct (proj1 (loc_encode_inv _ _ _) H) as (sid & fl & Hsid & _ & ->).
    exact (id_by_str_resolves L (l_name l) sid Hs Hsid).
  Qed.

  Lemma mrgn_ids_are_valid ls v : mrgn_encode L ls = Ok v ->
    Forall (fun slot => valid_sid L (vint "_string_id" slot)) (vlist "_locations" v).
  Proof.
    intros H. apply mrgn_encode_inv in H as (slots & Ht & ->). rewrite vlist_single.
    apply (table_forall Ht); [|left; reflexivity].
    intros l slot _ Hl. exact (proj2 (loc_name_id_is_valid l slot Hl)).
  Qed.
End Valid.

(* a location that holds a slot of the emitted table reads back with its own name *)
Lemma mrgn_slot_name_resolves L ls v k l slot :
  N.of_nat (length (sl_by_id L)) <= 1000000 -> mrgn_encode L ls = Ok v ->
  (k < N.to_nat MRGN_TRANSCODER_MAX_LOCATIONS)%nat ->
  assocN_last (N.of_nat k + 1) (flat_map (fun l => match l_idx l with Some i => [(i, l)] | None => [] end) ls) = Some l ->
  nth_error (vlist "_locations" v) k = Some slot ->
  str_by_id L (vint "_string_id" slot) = l_name l.
Proof.
  (* the bound on k already follows from slot k being there: the table has that many slots *)
  intros Hs H _ Hl Hn. apply mrgn_encode_inv in H as (slots & Ht & ->). rewrite vlist_single in Hn.
  pose proof (proj2 (table_nth Ht) k slot Hn) as Hb. unfold slot_of, keyed in Hb. rewrite Hl in Hb.
  exact (proj1 (loc_name_id_is_valid L Hs l slot Hb)).
Qed.

Definition refs_ok (L : str_lookup) (s : dsection) : Prop :=
  match s with
  | DTab name v =>
      (name = "MRGN" -> Forall (fun slot => valid_sid L (vint "_string_id" slot)) (vlist "_locations" v)) /\
      (name = "SWNM" -> Forall (valid_sid L) (vints "_switch_string_ids" v)) /\
      (name = "WAV " -> Forall (valid_sid L) (vints "_wav_string_ids" v))
  | _ => True
  end.

Lemma refs_ok_other L name v : name <> "MRGN" -> name <> "SWNM" -> name <> "WAV " -> refs_ok L (DTab name v).
Proof. intros A B C. repeat split; intros E; congruence. Qed.

Lemma save_sec_refs_ok wd b s y :
  N.of_nat (length (sl_by_id (rb_L b))) <= 1000000 -> rich_form_sec s = true -> save_sec wd b s = Ok y -> refs_ok (rb_L b) y.
Proof.
  intros Hsmall Hrf Hy. apply save_sec_inv in Hy. destruct s as [ls|ts|nw n us|cs|ss|ws|n w m|n v|n p].
  - destruct Hy as (v & -> & Hv). repeat split; intros E; try discriminate E. exact (mrgn_ids_are_valid _ Hsmall _ _ Hv).
  - destruct Hy as (v & -> & _). apply refs_ok_other; discriminate.
  - destruct Hy as (v & -> & _). destruct (rich_form_unis _ _ _ Hrf) as [-> | ->]; apply refs_ok_other; discriminate.
  - destruct Hy as (v & -> & _). apply refs_ok_other; discriminate.
  - destruct Hy as (v & -> & Hv). repeat split; intros E; try discriminate E. exact (swnm_ids_are_valid _ Hsmall _ _ Hv).
  - destruct Hy as (v & -> & Hv). repeat split; intros E; try discriminate E. exact (wav_ids_are_valid _ Hsmall _ _ Hv).
  - subst y. exact I.
  - subst y. apply refs_ok_other; apply (rich_form_tab n v _ Hrf); reflexivity.
  - subst y. exact I.
Qed.

Theorem saved_string_references_are_valid wd r d :
  forallb rich_form_sec r = true -> save wd r = Ok d ->
  exists new_str L,
    rebuild_str r = Ok new_str /\ build_str_lookup 2 new_str = Ok L /\
    length (sl_by_id L) = length (ss_offsets new_str) /\
    (forall i n w m, nth_error r i = Some (RDecodedStr n w m) -> n = "STR " -> nth_error d i = Some (DStr n w new_str)) /\
    (N.of_nat (length (sl_by_id L)) <= 1000000 -> Forall (refs_ok L) d).
Proof.
  intros Hrf H. destruct (save_inv _ _ _ H) as (b & Hb & Hm). pose proof (rs_lookup Hb) as H6.
  exists (rb_str b), (rb_L b). split; [exact (rs_str Hb)|]. split; [exact H6|]. split; [|split].
  - destruct (build_lookup_inv _ _ _ (build_str_lookup_inv _ _ _ H6)) as (bin & _ & HT). exact (mapM_length _ _ _ HT).
  - intros i n w m Hn ->. exact (save_str_nth _ _ _ _ _ _ _ Hm Hn).
  - intros Hsmall. apply completed_rich_form in Hrf. rewrite forallb_forall in Hrf.
    eapply mapM_forall_in; [|exact Hm]. intros s y Hs. apply save_sec_refs_ok; auto.
Qed.
