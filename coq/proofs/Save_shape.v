(* What a save is: five tables are rebuilt from the whole map, then ONE pass writes every section of the map completed by the
   sections it lacks (SWNM, UPRP, UPUS: the writer of each ignores what the section held, so "appended when absent" is
   "written in place" of an empty one put at the end): [save_inv].  The definitions of RichIo that rest on nothing more (load,
   its context, the string rebuild, the two editors) are opened here too; the three table rebuilders, which rest on the
   allocation engine, in C07_slots. *)
From Coq Require Import String NArith List Bool.
From RC Require Import lib.Result model.Layout model.Str model.StrEditor model.ChkIo model.RichCodec model.RichIo.
Import ListNotations.
Local Open Scope string_scope.
Local Open Scope list_scope.

Record rebuilt := {
  rb_str : str_section; rb_L : str_lookup; rb_mr : list rloc * list (rloc * N);
  rb_sw : list rswitch * list (rswitch * N); rb_up : list rcuwp; rb_us : val }.

Record rebuilds (r : list rsection) (b : rebuilt) : Prop := {
  rs_str : rebuild_str r = Ok (rb_str b);
  rs_mrgn : rebuild_mrgn r = Ok (rb_mr b);
  rs_swnm : RichIo.rebuild_swnm r = Ok (rb_sw b);
  rs_uprp : rebuild_uprp r = Ok (rb_up b);
  rs_upus : upus_rebuild (rb_up b) = Ok (rb_us b);
  rs_lookup : build_str_lookup 2 (rb_str b) = Ok (rb_L b) }.
Arguments rs_str {r b}. Arguments rs_mrgn {r b}. Arguments rs_swnm {r b}. Arguments rs_uprp {r b}.
Arguments rs_lookup {r b}.

Lemma rebuilds_L r b m L : rebuilds r b -> rebuild_str r = Ok m -> build_str_lookup 2 m = Ok L -> rb_L b = L.
Proof. intros Hb. pose proof (rs_str Hb). pose proof (rs_lookup Hb). congruence. Qed.

Definition save_cx (wd : list (list N * N)) (b : rebuilt) : context :=
  {| cx_str := rb_L b; cx_locs := fst (rb_mr b); cx_loc_ids := snd (rb_mr b); cx_switch_by_id := [];
     cx_switch_ids := snd (rb_sw b); cx_cuwps := rb_up b; cx_wav_dur := wd |}.

Definition save_sec (wd : list (list N * N)) (b : rebuilt) (s : rsection) : result dsection :=
  match s with
  | RUnknown n p => Ok (DUnknown n p)
  | RDecodedStr n w m => if String.eqb n "STR " then Ok (DStr n w (rb_str b)) else Ok (DStr n w m)
  | RDecodedTab n v => if String.eqb n "UPUS" then Ok (DTab n (rb_us b)) else Ok (DTab n v)
  | RMrgn _ => do v <- mrgn_encode (rb_L b) (fst (rb_mr b)); Ok (DTab "MRGN" v)
  | RSwnm _ => do v <- swnm_encode (rb_L b) (fst (rb_sw b)); Ok (DTab "SWNM" v)
  | RUprp _ => do v <- uprp_encode (rb_up b); Ok (DTab "UPRP" v)
  | RTrig ts => do v <- trig_encode (save_cx wd b) ts; Ok (DTab "TRIG" v)
  | RUnis nw n us => do v <- unis_encode (rb_L b) nw us; Ok (DTab n v)
  | RWav ws => do v <- wav_encode (rb_L b) ws; Ok (DTab "WAV " v)
  end.

(* per kind of section: the name written, and the encoder of its value *)
Lemma save_sec_inv wd b s y :
  save_sec wd b s = Ok y ->
  match s with
  | RMrgn _ => exists v, y = DTab "MRGN" v /\ mrgn_encode (rb_L b) (fst (rb_mr b)) = Ok v
  | RTrig ts => exists v, y = DTab "TRIG" v /\ trig_encode (save_cx wd b) ts = Ok v
  | RUnis nw n us => exists v, y = DTab n v /\ unis_encode (rb_L b) nw us = Ok v
  | RUprp _ => exists v, y = DTab "UPRP" v /\ uprp_encode (rb_up b) = Ok v
  | RSwnm _ => exists v, y = DTab "SWNM" v /\ swnm_encode (rb_L b) (fst (rb_sw b)) = Ok v
  | RWav ws => exists v, y = DTab "WAV " v /\ wav_encode (rb_L b) ws = Ok v
  | RDecodedStr n w m => y = DStr n w (if String.eqb n "STR " then rb_str b else m)
  | RDecodedTab n v => y = DTab n (if String.eqb n "UPUS" then rb_us b else v)
  | RUnknown n p => y = DUnknown n p
  end.
Proof.
  intros H. destruct s as [ls|ts|nw n us|cs|ss|ws|n w m|n v|n p]; cbn [save_sec] in H.
  (* the six kinds that are encoded anew *)
  all: try (inv_bind H as v Hv H; apply Ok_inj in H as <-; exists v; split; [reflexivity | exact Hv]).
  - destruct (String.eqb n "STR "); apply Ok_inj in H as <-; reflexivity.
  - destruct (String.eqb n "UPUS"); apply Ok_inj in H as <-; reflexivity.
  - apply Ok_inj in H as <-. reflexivity.
Qed.

Definition has (n : string) (r : list rsection) : bool :=
  existsb (fun s => match s with
                    | RSwnm _ => String.eqb n "SWNM" | RUprp _ => String.eqb n "UPRP"
                    | RDecodedTab m _ => String.eqb n m && String.eqb n "UPUS" | _ => false end) r.

Definition missing (r : list rsection) : list rsection :=
  (if has "SWNM" r then [] else [RSwnm []]) ++ (if has "UPRP" r then [] else [RUprp []]) ++
  (if has "UPUS" r then [] else [RDecodedTab "UPUS" VUnit]).

(* the three "append when absent" steps of save *)
Lemma save_missing wd b r :
  mapM (save_sec wd b) (missing r) =
  do e1 <- (if has "SWNM" r then Ok [] else do v <- swnm_encode (rb_L b) (fst (rb_sw b)); Ok [DTab "SWNM" v]);
  do e2 <- (if has "UPRP" r then Ok [] else do v <- uprp_encode (rb_up b); Ok [DTab "UPRP" v]);
  Ok (e1 ++ e2 ++ (if has "UPUS" r then [] else [DTab "UPUS" (rb_us b)])).
Proof.
  unfold missing. destruct (has "SWNM" r), (has "UPRP" r), (has "UPUS" r); cbn [app mapM save_sec bind].
  all: destruct (swnm_encode (rb_L b) (fst (rb_sw b))); cbn [bind]; try reflexivity.
  all: destruct (uprp_encode (rb_up b)); reflexivity.
Qed.

Theorem save_inv wd r d' :
  save wd r = Ok d' -> exists b, rebuilds r b /\ mapM (save_sec wd b) (r ++ missing r) = Ok d'.
Proof.
  unfold save. intros H.
  inv_bind H as ns H1 H. inv_bind H as mr H2 H. inv_bind H as sw H3 H. inv_bind H as up H4 H. inv_bind H as us H5 H.
  inv_bind H as L H6 H.
  (* that every rebuilt unit-property set carries a number, upus_rebuild has checked already *)
  apply bind_ok_inv in H as (_ & _ & H).
  inv_bind H as secs Hm H.
  set (b := {| rb_str := ns; rb_L := L; rb_mr := mr; rb_sw := sw; rb_up := up; rb_us := us |}). exists b.
  split; [constructor; assumption|]. fold (has "SWNM" r) (has "UPRP" r) (has "UPUS" r) in H.
  change (mapM (save_sec wd b) r = Ok secs) in Hm. rewrite mapM_app_eq, Hm, save_missing. cbn [bind].
  inv_bind H as e1 He1 H. inv_bind H as e2 He2 H. subst b. cbn [rb_L rb_sw rb_up rb_us]. rewrite He1, He2. exact H.
Qed.

Lemma save_nth wd r b d' i s :
  mapM (save_sec wd b) (r ++ missing r) = Ok d' -> nth_error r i = Some s ->
  exists y, save_sec wd b s = Ok y /\ nth_error d' i = Some y.
Proof.
  intros Hm Hn. apply (mapM_nth _ _ _ _ _ Hm). rewrite nth_error_app1; [exact Hn|]. apply nth_error_Some. congruence.
Qed.

Lemma save_trig_nth wd r b d' i ts :
  mapM (save_sec wd b) (r ++ missing r) = Ok d' -> nth_error r i = Some (RTrig ts) ->
  exists v, trig_encode (save_cx wd b) ts = Ok v /\ nth_error d' i = Some (DTab "TRIG" v).
Proof.
  intros Hm Hn. destruct (save_nth _ _ _ _ _ _ Hm Hn) as (y & Hy & Hny).
  apply save_sec_inv in Hy as (v & -> & Hv). eauto.
Qed.

Lemma save_str_nth wd r b d' i w m :
  mapM (save_sec wd b) (r ++ missing r) = Ok d' -> nth_error r i = Some (RDecodedStr "STR " w m) ->
  nth_error d' i = Some (DStr "STR " w (rb_str b)).
Proof.
  intros Hm Hn. destruct (save_nth _ _ _ _ _ _ Hm Hn) as (y & Hy & Hny). apply save_sec_inv in Hy as ->. exact Hny.
Qed.

Definition dnamed (n : string) (y : dsection) : bool :=
  match y with DStr m _ _ | DTab m _ => String.eqb n m | DUnknown _ _ => false end.

Lemma save_sec_named wd b n s y : save_sec wd b s = Ok y -> dnamed n y = named n s.
Proof.
  intros H. apply save_sec_inv in H. destruct s; try destruct H as (v & -> & _); try subst y; reflexivity.
Qed.

Lemma tabs_named_filter n d : tabs_named n d = tabs_named n (filter (dnamed n) d).
Proof.
  apply flat_map_filter. intros [m w x|m v|m p]; try reflexivity.
  cbn [dnamed]. rewrite String.eqb_sym. intros ->. reflexivity.
Qed.

Lemma strs_named_filter n d : strs_named n d = strs_named n (filter (dnamed n) d).
Proof.
  apply flat_map_filter. intros [m w x|m v|m p]; try reflexivity.
  cbn [dnamed]. rewrite String.eqb_sym. intros ->. reflexivity.
Qed.

(* THE SECTIONS NAMED n IN THE OUTPUT are the sections named n of the completed map, written in order *)
Theorem saved_sections_named wd r b d' n :
  mapM (save_sec wd b) (r ++ missing r) = Ok d' ->
  mapM (save_sec wd b) (filter (named n) r ++ filter (named n) (missing r)) = Ok (filter (dnamed n) d').
Proof. rewrite <- filter_app. apply mapM_filter. intros s y. apply save_sec_named. Qed.

(* ... in particular, when there is one, written as the table e *)
Lemma saved_one_tab wd r b d' n s (e : result val) :
  mapM (save_sec wd b) (r ++ missing r) = Ok d' -> filter (named n) r ++ filter (named n) (missing r) = [s] ->
  save_sec wd b s = (do v <- e; Ok (DTab n v)) -> exists v, e = Ok v /\ tabs_named n d' = [v].
Proof.
  intros Hm Hf He. apply (saved_sections_named _ _ _ _ n) in Hm. rewrite Hf in Hm.
  apply mapM_cons_inv in Hm as (y & ys & Hy & Hys & Hd). apply Ok_inj in Hys as <-. rewrite He in Hy.
  inv_bind Hy as v Hv Hy. apply Ok_inj in Hy as <-. exists v. split; [exact Hv|].
  rewrite tabs_named_filter, Hd. unfold tabs_named. simpl. rewrite String.eqb_refl. reflexivity.
Qed.

Lemma has_named n r : has n r = true -> filter (named n) r <> [].
Proof.
  unfold has. intros H. apply existsb_exists in H as (s & Hs & Hn). intros E.
  assert (In s (filter (named n) r)) as Hin; [|rewrite E in Hin; exact Hin].
  apply filter_In. split; [exact Hs|]. destruct s; try discriminate; cbn [named]; try exact Hn.
  apply andb_true_iff in Hn. tauto.
Qed.

Lemma missing_named_other n r : n <> "SWNM" -> n <> "UPRP" -> n <> "UPUS" -> filter (named n) (missing r) = [].
Proof.
  intros A B C. apply String.eqb_neq in A, B, C. unfold missing.
  destruct (has "SWNM" r), (has "UPRP" r), (has "UPUS" r); cbn [app filter named]; rewrite ?A, ?B, ?C; reflexivity.
Qed.

Lemma missing_named_swnm r : filter (named "SWNM") (missing r) = if has "SWNM" r then [] else [RSwnm []].
Proof. unfold missing. destruct (has "SWNM" r), (has "UPRP" r), (has "UPUS" r); reflexivity. Qed.

Lemma missing_named_uprp r : filter (named "UPRP") (missing r) = if has "UPRP" r then [] else [RUprp []].
Proof. unfold missing. destruct (has "SWNM" r), (has "UPRP" r), (has "UPUS" r); reflexivity. Qed.

(* a section written whether the map has it or not: once, when the map has it at most once and nothing else under its
   name *)
Lemma in_place_or_appended n r (is : rsection -> bool) (dflt : rsection) :
  filter (named n) (missing r) = (if has n r then [] else [dflt]) -> is dflt = true ->
  (forall s, is s = true -> In s r -> has n r = true) ->
  filter (named n) r = [] \/ (exists s, is s = true /\ filter (named n) r = [s]) ->
  exists s, is s = true /\ filter (named n) r ++ filter (named n) (missing r) = [s].
Proof.
  intros -> Hd Hhas [E|(s & His & E)]; rewrite E.
  - destruct (has n r) eqn:Eh; [apply has_named in Eh; contradiction | eauto].
  - rewrite (Hhas s His); [eauto|]. eapply proj1, filter_In. rewrite E. left. reflexivity.
Qed.

Lemma only_inv {A} (l : list A) x : only l = Ok x -> l = [x].
Proof. destruct l as [|y [|z t]]; simpl; intros H; try discriminate H. apply Ok_inj in H as ->. reflexivity. Qed.

Lemma rebuild_str_inv r m' :
  rebuild_str r = Ok m' ->
  exists w m, filter (named "STR ") r = [RDecodedStr "STR " w m] /\ add_strings 2 (flat_map section_strings r) m = Ok m'.
Proof.
  unfold rebuild_str. intros H. inv_bind H as x Hx H. apply only_inv in Hx.
  destruct x as [| | | | | |n w m| |]; try discriminate H.
  (* it passed the filter: its name is "STR " *)
  assert (named "STR " (RDecodedStr n w m) = true) as Hn by (eapply proj2, filter_In; rewrite Hx; left; reflexivity).
  apply String.eqb_eq in Hn. subst n. eauto.
Qed.

Lemma rebuild_str_eq r n w m :
  filter (named "STR ") r = [RDecodedStr n w m] -> rebuild_str r = add_strings 2 (flat_map section_strings r) m.
Proof. unfold rebuild_str. intros ->. reflexivity. Qed.

Theorem saved_str wd r b d' :
  rebuilds r b -> mapM (save_sec wd b) (r ++ missing r) = Ok d' -> strs_named "STR " d' = [rb_str b].
Proof.
  intros Hb Hm. destruct (rebuild_str_inv _ _ (rs_str Hb)) as (w & m & Hx & _).
  pose proof (saved_sections_named wd r b d' "STR " Hm) as Hf. rewrite Hx, missing_named_other in Hf by discriminate.
  injection Hf as Hf. rewrite strs_named_filter, <- Hf. reflexivity.
Qed.

Lemma load_inv d r : load d = Ok r -> exists cx, decode_context d = Ok cx /\ mapM (load_section cx) d = Ok r.
Proof. unfold load. intros H. inv_bind H as cx Hcx Hm. eauto. Qed.

(* per kind of rich section: what it was decoded from, and by which decoder *)
Lemma load_section_inv cx s y :
  load_section cx s = Ok y ->
  match y with
  | RMrgn ls => exists v, s = DTab "MRGN" v /\ mrgn_decode (cx_str cx) v = Ok ls
  | RTrig ts => exists v, s = DTab "TRIG" v /\ trig_decode cx v = Ok ts
  | RUnis nw n us => exists v, s = DTab n v /\ us = unis_decode (cx_str cx) v /\ (n = "UNIS" \/ n = "UNIx")
  | RUprp cs => exists v, s = DTab "UPRP" v /\ uprp_decode v = Ok cs
  | RSwnm ss => exists v, s = DTab "SWNM" v /\ swnm_decode (cx_switch_by_id cx) v = Ok ss
  | RWav ws => exists v, s = DTab "WAV " v /\ ws = wav_decode (cx_str cx) v
  | RDecodedStr n w m => s = DStr n w m
  | RDecodedTab n v => s = DTab n v /\ is_rich_name n = false
  | RUnknown n p => s = DUnknown n p
  end.
Proof.
  destruct s as [n w m|n v|n p]; cbn [load_section]; intros H.
  all: try (apply Ok_inj in H as <-; reflexivity).
  destruct (is_rich_name n) eqn:En; cbn [negb] in H; [|apply Ok_inj in H as <-; auto].
  (* the registered names, in the order load_section asks for them *)
  destruct (String.eqb_spec n "MRGN") as [->|_]; [inv_bind H as x Hx H; apply Ok_inj in H as <-; eauto|].
  destruct (String.eqb_spec n "TRIG") as [->|_]; [inv_bind H as x Hx H; apply Ok_inj in H as <-; eauto|].
  destruct (String.eqb_spec n "UNIS") as [->|_]; [apply Ok_inj in H as <-; eauto|].
  destruct (String.eqb_spec n "UNIx") as [->|_]; [apply Ok_inj in H as <-; eauto|].
  destruct (String.eqb_spec n "UPRP") as [->|_]; [inv_bind H as x Hx H; apply Ok_inj in H as <-; eauto|].
  destruct (String.eqb_spec n "SWNM") as [->|_]; [inv_bind H as x Hx H; apply Ok_inj in H as <-; eauto|].
  destruct (String.eqb_spec n "WAV ") as [->|_]; [apply Ok_inj in H as <-; eauto | discriminate H].
Qed.

Lemma load_nth d r i s :
  load d = Ok r -> nth_error d i = Some s ->
  exists cx y, decode_context d = Ok cx /\ load_section cx s = Ok y /\ nth_error r i = Some y.
Proof.
  intros H Hn. destruct (load_inv _ _ H) as (cx & Hcx & Hm).
  destruct (mapM_nth _ _ _ _ _ Hm Hn) as (y & Hy & Hny). eauto.
Qed.

Theorem decode_context_inv d cx : decode_context d = Ok cx ->
  exists str mv,
    strs_named "STR " d = [str] /\ build_str_lookup 2 str = Ok (cx_str cx) /\
    tabs_named "MRGN" d = [mv] /\ mrgn_decode (cx_str cx) mv = Ok (cx_locs cx) /\
    cx_switch_by_id cx = match tabs_named "SWNM" d with [v] => swnm_lookup (cx_str cx) v | _ => [] end /\
    match tabs_named "UPRP" d with [v] => uprp_decode v | _ => Ok [] end = Ok (cx_cuwps cx).
Proof.
  unfold decode_context. intros H.
  inv_bind H as str Hstr H. inv_bind H as L HL H. inv_bind H as mv Hmv H. inv_bind H as locs Hlocs H. inv_bind H as cw Hcw H.
  apply Ok_inj in H as <-.
  apply only_inv in Hstr, Hmv. exists str, mv. cbn [cx_str cx_locs cx_switch_by_id cx_cuwps]. repeat split; assumption.
Qed.

Lemma build_str_lookup_inv w m L : build_str_lookup w m = Ok L -> build_lookup w m = Ok (sl_by_id L).
Proof. unfold build_str_lookup. intros H. inv_bind H as T HT H. apply Ok_inj in H as <-. exact HT. Qed.

Lemma add_triggers_inv new r r' :
  add_triggers new r = Ok r' ->
  exists ts, In (RTrig ts) r /\ r' = map (fun s => match s with RTrig _ => RTrig (ts ++ new) | x => x end) r.
Proof.
  unfold add_triggers. destruct (flat_map _ r) as [|ts rest] eqn:E; [discriminate|]. intros H. apply Ok_inj in H.
  exists ts. split; [|symmetry; exact H].
  assert (In ts (ts :: rest)) as Hin by (left; reflexivity). rewrite <- E in Hin.
  apply in_flat_map in Hin as (s & Hs & Hin). destruct s; try contradiction. destruct Hin as [->|[]]. exact Hs.
Qed.

Lemma upsert_units_inv name new r r' :
  upsert_units name new r = Ok r' ->
  exists us', r' = map (fun s => match s with
                                 | RUnis nw n _ => if String.eqb n name then RUnis nw n us' else s
                                 | x => x end) r.
Proof.
  unfold upsert_units. destruct (flat_map _ r) as [|[nw us] rest]; [discriminate|]. intros H. apply Ok_inj in H.
  eexists. symmetry. exact H.
Qed.
