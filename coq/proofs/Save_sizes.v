(* C11, whole map: every table section that RichChkIo.encode_chk emits — re-encoded rich sections, the recomputed UPUS
   and the SWNM / UPRP / UPUS sections appended when the map had none — has exactly the size the format mandates
   (TRIG: a whole number of 2400-byte triggers), whatever the rich content is; otherwise some step raised. *)
From Coq Require Import String NArith List Bool Lia PeanoNat.
From RC Require Import lib.Result lib.Bytes model.Layout model.Str model.ChkIo model.Flags model.TrigTable
  model.RichCodec model.RichIo proofs.Layout_proofs proofs.C11_proofs proofs.Save_shape proofs.SlotTable
  proofs.RichTables gen.GenLayouts gen.GenConsts gen.GenTrig gen.GenFlags.
Import ListNotations.
Local Open Scope string_scope.
Local Open Scope list_scope.

(* layouts whose every array is written by one struct.pack("{n}<code>", *xs): any value that encodes at all has the
   layout's size *)

Fixpoint all_strict (l : layout) : bool :=
  match l with
  | Prim _ => true
  | Arr _ st l' => st && all_strict l'
  | Seq a b => all_strict a && all_strict b
  | Named _ l' => all_strict l'
  | Unit => true
  | Many _ => false
  | Chunk _ _ => false
  end.

Theorem strict_encode_size l : forall v bs s,
  all_strict l = true -> size_l l = Some s -> encode_l l v = Ok bs -> length bs = s.
Proof.
  induction l as [w|n st l IH|a IHa b IHb|f l IH| |l IH|sz l IH]; intros v bs s Hst Hs H.
  6, 7: discriminate Hst.
  all: apply encode_l_inv in H; simpl in Hs, Hst.
  - destruct H as (n & _ & H). inversion Hs; subst. apply pack_ok_inv in H as [_ ->]. apply le_encode_length.
  - destruct H as (vs & _ & Hn & H). apply andb_true_iff in Hst as [-> Hst]. destruct (size_l l) as [sl|]; inversion Hs.
    rewrite (enc_list_length _ sl _ _ (fun x b _ => IH x b sl Hst eq_refl) H), (Hn eq_refl). reflexivity.
  - destruct H as (x & y & p & q & _ & Hp & Hq & ->). apply andb_true_iff in Hst as [Hsa Hsb].
    destruct (size_l a) as [sa|], (size_l b) as [sb|]; inversion Hs.
    rewrite app_length, (IHa _ _ _ Hsa eq_refl Hp), (IHb _ _ _ Hsb eq_refl Hq). reflexivity.
  - destruct H as (x & _ & H). eauto.
  - destruct H as (_ & ->). inversion Hs. reflexivity.
Qed.

Definition mandated (name : string) (len : nat) : Prop :=
  if String.eqb name "MRGN" then len = 5100
  else if String.eqb name "TRIG" then exists k, len = k * 2400
  else if String.eqb name "UNIS" then len = 4048
  else if String.eqb name "UNIx" then len = 4168
  else if String.eqb name "UPRP" then len = 1280
  else if String.eqb name "UPUS" then len = 64
  else if String.eqb name "SWNM" then len = 1024
  else if String.eqb name "WAV " then len = 2048
  else True.

Definition payload_ok (s : dsection) : Prop :=
  match s with
  | DTab name v =>
      forall dec enc payload, lookup_str name section_table = Some (KTab dec enc) ->
                              encode_l enc v = Ok payload -> mandated name (length payload)
  | _ => True
  end.

(* the lookup is followed through the table's ten names; the five tables it can end at here have strict layouts of the
   mandated size, by evaluation *)
Lemma strict_sections name dec enc :
  lookup_str name section_table = Some (KTab dec enc) -> name <> "MRGN" -> name <> "TRIG" -> name <> "UPRP" ->
  all_strict enc = true /\ exists s, size_l enc = Some s /\ mandated name s.
Proof.
  intros H N1 N2 N3. unfold section_table in H. cbn [gen_string_sections gen_layouts map app fst snd lookup_str] in H.
  repeat match type of H with
         | (if String.eqb name ?s then _ else _) = _ => destruct (String.eqb_spec name s) as [->|_]
         end.
  (* a string section ("STR ", "STRx") is no table; and, last, no entry at all *)
  all: try discriminate H.
  (* one of the eight tables; for the three excluded names the premises contradict each other *)
  all: injection H as <- <-; try congruence.
  all: split; [reflexivity|]; eexists; split; reflexivity.
Qed.

Definition loc_layout : layout :=
  match enc_MRGN with Seq (Named _ (Many l)) _ => l | _ => Unit end.

Lemma loc_encode_fits L l v : loc_encode L l = Ok v -> fits loc_layout v = true.
Proof.
  intros H. destruct (proj1 (loc_encode_inv _ _ _) H) as (sid & fl & _ & _ & ->). reflexivity.
Qed.

Theorem mrgn_section_is_5100 L ls v bs :
  mrgn_encode L ls = Ok v -> encode_l enc_MRGN v = Ok bs -> length bs = 5100.
Proof.
  intros H He. apply mrgn_encode_inv in H as (slots & Ht & ->).
  (* the layout repeats its 20-byte record to the end of the section (Many): 255 slots were written *)
  apply (record_section_size "_locations" loc_layout 20) in He; try reflexivity.
  - rewrite He, (proj1 (table_nth Ht)). reflexivity.
  - apply (table_forall Ht); [|reflexivity]. intros l v _. apply loc_encode_fits.
Qed.

Definition cuwp_layout : layout :=
  match enc_UPRP with Seq (Named _ (Arr _ _ l)) _ => l | _ => Unit end.

Lemma cuwp_encode_fits c v : cuwp_encode c = Ok v -> fits cuwp_layout v = true.
Proof.
  intros H. destruct (proj1 (cuwp_encode_inv _ _) H) as (a & b & f & _ & _ & _ & ->). reflexivity.
Qed.

Theorem uprp_section_is_1280 cs v bs :
  uprp_encode cs = Ok v -> encode_l enc_UPRP v = Ok bs -> length bs = 1280.
Proof.
  intros H He. apply uprp_encode_inv in H as (_ & slots & Ht & ->).
  (* here the layout counts its records itself (Arr 64, of 20 bytes): whatever fits it has its size *)
  apply (encode_size enc_UPRP _ _ 1280) in He; [exact He | reflexivity | reflexivity |].
  change enc_UPRP with (Seq (Named "_cuwp_slots" (Arr 64 false cuwp_layout)) Unit).
  cbn [mk_struct]. rewrite fits_field. cbn [fits].
  rewrite (proj1 (table_nth Ht)), forallb_of_Forall; [reflexivity|].
  apply (table_forall Ht); [|reflexivity]. intros c v _. apply cuwp_encode_fits.
Qed.

(* every section that has a rich model is held in its rich form, under its own name (what decode_chk produces and
   the editors keep; a hand-built DecodedTrigSection smuggled into a RichChk is outside "rich content") *)
Definition rich_form_sec (s : rsection) : bool :=
  match s with
  | RDecodedTab n _ => negb (is_rich_name n)
  | RUnis _ n _ => String.eqb n "UNIS" || String.eqb n "UNIx"
  | _ => true
  end.

Lemma rich_form_unis nw n us : rich_form_sec (RUnis nw n us) = true -> n = "UNIS" \/ n = "UNIx".
Proof. cbn [rich_form_sec]. intros H. apply orb_true_iff in H as [E|E]; apply String.eqb_eq in E; auto. Qed.

Lemma rich_form_tab n v m : rich_form_sec (RDecodedTab n v) = true -> is_rich_name m = true -> n <> m.
Proof. cbn [rich_form_sec]. intros Hn Hm ->. rewrite Hm in Hn. discriminate Hn. Qed.

(* so that the three size proofs need not unfold [mandated] *)
Lemma mandated_trig len : (exists k, len = k * 2400) -> mandated "TRIG" len.
Proof. intros H. exact H. Qed.

Lemma mandated_mrgn len : len = 5100 -> mandated "MRGN" len.
Proof. intros H. exact H. Qed.

Lemma mandated_uprp len : len = 1280 -> mandated "UPRP" len.
Proof. intros H. exact H. Qed.

Lemma payload_ok_strict name v :
  name <> "MRGN" -> name <> "TRIG" -> name <> "UPRP" -> payload_ok (DTab name v).
Proof.
  intros N1 N2 N3 dec enc payload Hl He.
  destruct (strict_sections name dec enc Hl N1 N2 N3) as (Hst & s & Hs & Hm).
  rewrite (strict_encode_size enc v payload s Hst Hs He). exact Hm.
Qed.

Lemma payload_ok_mrgn L ls v : mrgn_encode L ls = Ok v -> payload_ok (DTab "MRGN" v).
Proof.
  intros H dec enc payload Hl He. vm_compute in Hl. injection Hl as <- <-.
  apply mandated_mrgn. exact (mrgn_section_is_5100 _ _ _ _ H He).
Qed.

Lemma payload_ok_uprp cs v : uprp_encode cs = Ok v -> payload_ok (DTab "UPRP" v).
Proof.
  intros H dec enc payload Hl He. vm_compute in Hl. injection Hl as <- <-.
  apply mandated_uprp. exact (uprp_section_is_1280 _ _ _ H He).
Qed.

Lemma payload_ok_trig cx ts v : trig_encode cx ts = Ok v -> payload_ok (DTab "TRIG" v).
Proof.
  intros H dec enc payload Hl He. vm_compute in Hl. injection Hl as <- <-.
  apply mandated_trig. exists (length ts). exact (trig_section_is_whole_triggers _ _ _ _ H He).
Qed.

Lemma completed_rich_form r : forallb rich_form_sec r = true -> forallb rich_form_sec (r ++ missing r) = true.
Proof.
  intros H. rewrite forallb_app, H. unfold missing. destruct (has "SWNM" r), (has "UPRP" r), (has "UPUS" r); reflexivity.
Qed.

Lemma save_sec_payload_ok wd b s y : rich_form_sec s = true -> save_sec wd b s = Ok y -> payload_ok y.
Proof.
  intros Hrf Hy. apply save_sec_inv in Hy. destruct s as [ls|ts|nw n us|cs|ss|ws|n w m|n v|n p].
  - destruct Hy as (v & -> & Hv). exact (payload_ok_mrgn _ _ _ Hv).
  - destruct Hy as (v & -> & Hv). exact (payload_ok_trig _ _ _ Hv).
  - destruct Hy as (v & -> & _). destruct (rich_form_unis _ _ _ Hrf) as [-> | ->]; apply payload_ok_strict; discriminate.
  - destruct Hy as (v & -> & Hv). exact (payload_ok_uprp _ _ Hv).
  - destruct Hy as (v & -> & _). apply payload_ok_strict; discriminate.
  - destruct Hy as (v & -> & _). apply payload_ok_strict; discriminate.
  - subst y. exact I.
  - (* whatever is written under n, n is none of the three *)
    subst y. apply payload_ok_strict; apply (rich_form_tab n v _ Hrf); reflexivity.
  - subst y. exact I.
Qed.

Theorem save_emits_mandated_sizes wd r d :
  forallb rich_form_sec r = true -> save wd r = Ok d -> Forall payload_ok d.
Proof.
  intros Hrf H. destruct (save_inv _ _ _ H) as (b & _ & Hm). apply completed_rich_form in Hrf. rewrite forallb_forall in Hrf.
  eapply mapM_forall_in; [|exact Hm]. intros s y Hs. apply save_sec_payload_ok. auto.
Qed.

(* the premise is satisfiable in a non-trivial way: whatever load produces is in rich form *)
Lemma load_section_rich_form cx s r : load_section cx s = Ok r -> rich_form_sec r = true.
Proof.
  intros H. apply load_section_inv in H. destruct r as [ls|ts|nw n us|cs|ss|ws|n w m|n v|n p]; try reflexivity.
  - destruct H as (v & _ & _ & [-> | ->]); reflexivity.
  - destruct H as [_ En]. cbn [rich_form_sec]. rewrite En. reflexivity.
Qed.

Theorem loaded_maps_are_in_rich_form d r : load d = Ok r -> forallb rich_form_sec r = true.
Proof.
  intros H. destruct (load_inv _ _ H) as (cx & _ & Hm). apply forallb_of_Forall.
  eapply mapM_forall; [|exact Hm]. intros a b Hab. eapply load_section_rich_form; eauto.
Qed.

Theorem add_triggers_keeps_rich_form new r r' :
  add_triggers new r = Ok r' -> forallb rich_form_sec r = true -> forallb rich_form_sec r' = true.
Proof.
  intros H Hr. destruct (add_triggers_inv _ _ _ H) as (ts0 & _ & ->).
  rewrite forallb_forall in *. intros x Hx. apply in_map_iff in Hx as (y & <- & Hy). specialize (Hr y Hy).
  destruct y; assumption.
Qed.
