(* String numbers are stable under growth: the id -> text lookup of a grown STR table is the old lookup followed by
   the new texts, none of which the old lookup held.  Hence every text that had an id keeps it in everything the save
   writes (C07: existing references are not renumbered; C04: a new text gets an id of its own), and the id a lookup gives
   a text reads back as that text. *)
From Coq Require Import String NArith List Bool Lia PeanoNat.
From RC Require Import lib.Result lib.Bytes model.Layout model.Str model.StrEditor model.RichCodec proofs.C08_proofs
  proofs.Keyed proofs.Entries.
Import ListNotations.
Local Open Scope list_scope.
Local Open Scope N_scope.

Lemma Forall2_of_mapM {A B} (f : A -> result B) l : forall r, mapM f l = Ok r -> Forall2 (fun a b => f a = Ok b) l r.
Proof. intros r. apply mapM_Forall2. Qed.

Theorem add_strings_lookup w req t bin t' T T' :
  wf_table w t bin -> Forall clean req -> add_strings w req t = Ok t' ->
  build_lookup w t = Ok T -> build_lookup w t' = Ok T' ->
  exists U, T' = T ++ U /\ NoDup U /\ (forall s, In s U -> In s req /\ ~ In s T) /\ (forall s, In s req -> In s (T ++ U)).
Proof.
  intros Hwf Hreq Hadd HT%(build_lookup_wf _ _ _ _ Hwf) (bin' & He' & HT')%build_lookup_inv.
  destruct (add_strings_spec _ _ _ _ _ _ Hwf Hreq HT Hadd) as (U & -> & Hnd & HU & Hsub & Hcov).
  rewrite (grown_lookup _ _ _ _ _ _ Hwf HU He' HT) in HT'. inversion HT'; subst T'.
  exists U. auto.
Qed.

Lemma last_id_of_app s : forall a b next found,
  last_id_of s (a ++ b) next found = last_id_of s b (next + N.of_nat (length a)) (last_id_of s a next found).
Proof.
  induction a as [|x a IH]; intros b next found; simpl.
  - rewrite N.add_0_r. reflexivity.
  - rewrite IH. f_equal. lia.
Qed.

Lemma last_id_of_spec s : forall b next found,
  ~ In s b /\ last_id_of s b next found = found \/
  exists k, nth_error b k = Some s /\ last_id_of s b next found = Some (next + N.of_nat k).
Proof.
  induction b as [|x b IH]; intros next found; simpl; [tauto|].
  destruct (IH (next + 1) (if list_N_eqb s x then Some next else found)) as [[Hn ->]|(k & Hk & ->)].
  - destruct (list_N_eqb s x) eqn:E.
    + apply list_N_eqb_eq in E. subst x. right. exists 0%nat. rewrite N.add_0_r. auto.
    + left. split; [|reflexivity]. intros [->|H]; [|tauto]. rewrite (proj2 (list_N_eqb_eq s s) eq_refl) in E. discriminate.
  - right. exists (S k). split; [exact Hk | f_equal; lia].
Qed.

Theorem id_stable_under_growth T U s : ~ In s U -> id_by_string (T ++ U) s = id_by_string T s.
Proof.
  intros H. unfold id_by_string. rewrite last_id_of_app.
  destruct (last_id_of_spec s U (1 + N.of_nat (length T)) (last_id_of s T 1 None)) as [[_ E]|(k & Hk & _)]; [exact E|].
  destruct H. eapply nth_error_In; eauto.
Qed.

Lemma id_by_string_spec T s :
  ~ In s T /\ id_by_string T s = None \/ exists k, nth_error T k = Some s /\ id_by_string T s = Some (1 + N.of_nat k).
Proof. exact (last_id_of_spec s T 1 None). Qed.

(* ids are 1-based positions *)
Theorem id_by_string_sound T s i : id_by_string T s = Some i -> 1 <= i /\ nth_error T (N.to_nat (i - 1)) = Some s.
Proof.
  destruct (id_by_string_spec T s) as [[_ ->]|(k & Hk & ->)]; [discriminate|].
  intros E. assert (i = 1 + N.of_nat k) as -> by congruence. split; [lia|].
  replace (N.to_nat (1 + N.of_nat k - 1)) with k by lia. exact Hk.
Qed.

Theorem id_by_string_complete T s : In s T -> exists i, id_by_string T s = Some i.
Proof. intros H. destruct (id_by_string_spec T s) as [[Hn _]|(k & _ & ->)]; [tauto | eauto]. Qed.

Definition known (L : str_lookup) (s : rstr) : Prop := match s with RNull => True | RText t => In t (sl_by_id L) end.

Theorem id_by_str_stable T U s :
  known {| sl_by_id := T |} s -> (forall t, s = RText t -> ~ In t U) ->
  id_by_str {| sl_by_id := T ++ U |} s = id_by_str {| sl_by_id := T |} s.
Proof.
  destruct s as [|t]; intros Hk Hn; [reflexivity|]. simpl. rewrite id_stable_under_growth; [reflexivity|]. apply Hn. reflexivity.
Qed.

Lemma str_by_id_0 L : str_by_id L 0 = RNull.
Proof. reflexivity. Qed.

Lemma str_by_id_pos L id : id <> 0 ->
  str_by_id L id = match nth_error (sl_by_id L) (N.to_nat (N.min (id - 1) 1000000)) with Some t => RText t | None => RNull end.
Proof. intros H%N.eqb_neq. unfold str_by_id. rewrite H. reflexivity. Qed.

Lemma str_by_id_known L id : known L (str_by_id L id).
Proof.
  destruct (N.eq_dec id 0) as [->|Hid]; [exact I|]. rewrite (str_by_id_pos L id Hid).
  destruct (nth_error _ _) eqn:E; [|exact I]. simpl. eapply nth_error_In; eauto.
Qed.

(* two lookups that give every text of a set the same id; the section encoders below consult the lookup only through
   id_by_str, so they cannot tell such lookups apart *)
Definition agree_on (L L' : str_lookup) (P : rstr -> Prop) : Prop := forall s, P s -> id_by_str L' s = id_by_str L s.

Theorem wav_encode_agree L L' ws :
  agree_on L L' (fun s => In s (map fst ws)) -> wav_encode L' ws = wav_encode L ws.
Proof.
  intros Ha. unfold wav_encode. apply (f_equal (fun r => bind r _)), mapM_ext_in. intros i _.
  destruct (assocN_last i (map (fun w => (snd w, fst w)) ws)) as [p|] eqn:E; [|reflexivity].
  apply Ha. apply assocN_last_in in E. apply in_map_iff in E as ([s k] & Heq & Hin). simpl in Heq. inversion Heq; subst.
  apply in_map_iff. exists (p, i). auto.
Qed.

Theorem swnm_encode_agree L L' ss :
  agree_on L L' (fun s => In s (map s_name ss)) -> swnm_encode L' ss = swnm_encode L ss.
Proof.
  intros Ha. unfold swnm_encode. apply (f_equal (fun r => bind r _)), mapM_ext_in. intros x Hx. apply Ha. apply in_map. assumption.
Qed.

Theorem loc_encode_agree L L' l : agree_on L L' (fun s => s = l_name l) -> loc_encode L' l = loc_encode L l.
Proof. intros Ha. unfold loc_encode. rewrite (Ha (l_name l) eq_refl). reflexivity. Qed.

Theorem unis_encode_agree L L' nw us :
  agree_on L L' (fun s => In s (map u_name us)) -> unis_encode L' nw us = unis_encode L nw us.
Proof.
  intros Ha. unfold unis_encode. apply (f_equal (fun r => bind r _)), fold_left_ext_in. intros acc x Hx.
  rewrite (Ha (u_name x)) by (apply in_map; assumption). reflexivity.
Qed.

Theorem growths_agree T U U' :
  (forall s, In s U -> ~ In s T) -> (forall s, In s U' -> ~ In s T) ->
  agree_on {| sl_by_id := T ++ U |} {| sl_by_id := T ++ U' |} (known {| sl_by_id := T |}).
Proof.
  intros HU HU' s Hk. destruct s as [|t]; [reflexivity|]. simpl in Hk. simpl.
  rewrite !id_stable_under_growth; [reflexivity | |]; intros Hc; [eapply HU | eapply HU']; eauto.
Qed.

(* The bound 1000000 is the model's, not the library's: str_by_id clamps the position at 1000000 before it becomes a nat (the
   model runs extracted, where nat is unary; Python's dict.get needs no clamp).  On a table of at most that many texts the
   clamp cannot be seen - an id it alters lies beyond the table either way.  Every theorem that reads a string number back
   through str_by_id carries this premise. *)
Theorem id_by_str_resolves L s i :
  N.of_nat (length (sl_by_id L)) <= 1000000 ->
  id_by_str L s = Ok i ->
  str_by_id L i = s /\ (i = 0 \/ (1 <= i /\ i <= N.of_nat (length (sl_by_id L)))).
Proof.
  intros Hsmall H. destruct s as [|t]; simpl in H.
  - inversion H; subst i. split; [reflexivity | left; reflexivity].
  - destruct (id_by_string (sl_by_id L) t) as [j|] eqn:E; [|discriminate]. inversion H; subst j. clear H.
    destruct (id_by_string_sound _ _ _ E) as [H1 Hn].
    assert (N.to_nat (i - 1) < length (sl_by_id L))%nat as Hlt by (apply nth_error_Some; congruence).
    split.
    + rewrite str_by_id_pos, N.min_l, Hn by lia. reflexivity.
    + right. lia.
Qed.

Lemma vints_single f ids : vints f (mk_struct [(f, VList (map VInt ids))]) = ids.
Proof. unfold vints, vlist. rewrite vfield_head. induction ids; simpl; [reflexivity | f_equal; assumption]. Qed.
