(* A table of numbered slots, as MRGN (255 locations) and UPRP (64 unit-property sets) are: slot k holds the object numbered
   k+1 or the all-zero record.  Decoding walks the slots and skips unused ones; encoding asks, for each slot, for the last
   object carrying its number.  Everything about the two tables that does not depend on what a slot holds is proved here,
   once, over the slot codec. *)
From Coq Require Import NArith List Bool Lia PeanoNat.
From RC Require Import lib.Result model.Layout model.RichCodec proofs.Keyed.
Import ListNotations.
Local Open Scope list_scope.
Local Open Scope N_scope.

Section SlotTable.
  Context {T : Type} (idx : T -> option N) (unused : val -> bool) (dec1 : val -> N -> result T)
          (enc1 : T -> result val) (empty : val).
  Hypothesis dec1_idx : forall v i x, dec1 v i = Ok x -> idx x = Some i.

  Fixpoint walk (vs : list val) (i : N) : result (list T) :=
    match vs with
    | [] => Ok []
    | v :: r => do rest <- walk r (i + 1); if unused v then Ok rest else do x <- dec1 v (i + 1); Ok (x :: rest)
    end.

  Definition of_slot (v : val) (i : N) : result (option T) :=
    if unused v then Ok None else do x <- dec1 v i; Ok (Some x).

  Lemma of_slot_free v i : unused v = true -> of_slot v i = Ok None.
  Proof. unfold of_slot. intros ->. reflexivity. Qed.

  Lemma of_slot_taken v i : unused v = false -> of_slot v i = do x <- dec1 v i; Ok (Some x).
  Proof. unfold of_slot. intros ->. reflexivity. Qed.

  Lemma of_slot_inv v i o :
    of_slot v i = Ok o -> if unused v then o = None else exists x, dec1 v i = Ok x /\ o = Some x.
  Proof.
    destruct (unused v) eqn:Eu; [rewrite (of_slot_free _ _ Eu) | rewrite (of_slot_taken _ _ Eu)]; intros H.
    - apply Ok_inj in H as <-. reflexivity.
    - inv_bind H as x Hx H. apply Ok_inj in H as <-. eauto.
  Qed.

  Definition slot_of (l : list T) (i : N) : result val :=
    match assocN_last (i + 1) (keyed idx l) with Some x => enc1 x | None => Ok empty end.

  Definition table (n : nat) (l : list T) : result (list val) := mapM (slot_of l) (map N.of_nat (seq 0 n)).

  Lemma walk_cons v r i :
    walk (v :: r) i = do rest <- walk r (i + 1); do o <- of_slot v (i + 1);
                      Ok (match o with Some x => x :: rest | None => rest end).
  Proof.
    simpl. destruct (walk r (i + 1)); [|reflexivity]. simpl.
    destruct (unused v) eqn:Eu; [rewrite (of_slot_free _ _ Eu); reflexivity|].
    rewrite (of_slot_taken _ _ Eu). destruct (dec1 v (i + 1)); reflexivity.
  Qed.

  Lemma walk_one_taken v i x : unused v = false -> dec1 v (i + 1) = Ok x -> walk [v] i = Ok [x].
  Proof. intros Hu Hd. rewrite walk_cons, (of_slot_taken _ _ Hu), Hd. reflexivity. Qed.

  (* THE DECODED LIST, READ AS "NUMBER -> OBJECT": slot k alone decides number i0 + k + 1; nothing else is numbered *)
  Theorem walk_spec : forall vs i0 l, walk vs i0 = Ok l ->
    (forall j, In j (map fst (keyed idx l)) -> i0 < j <= i0 + N.of_nat (length vs)) /\
    NoDup (map fst (keyed idx l)) /\
    forall k v, nth_error vs k = Some v ->
      of_slot v (i0 + N.of_nat k + 1) = Ok (assocN_last (i0 + N.of_nat k + 1) (keyed idx l)).
  Proof.
    induction vs as [|v r IH]; intros i0 l H.
    - apply Ok_inj in H as <-. split; [intros j []|]. split; [constructor|]. intros [|k]; discriminate.
    - rewrite walk_cons in H. apply bind_ok_inv in H as (rest & Hrest & H). apply bind_ok_inv in H as (o & Ho & H).
      apply Ok_inj in H as <-. destruct (IH _ _ Hrest) as (Hrange & Hnd & Hslots).
      assert (~ In (i0 + 1) (map fst (keyed idx rest))) as Hfresh by (intros Hc; apply Hrange in Hc; lia).
      assert (forall k v', nth_error r k = Some v' ->
                of_slot v' (i0 + N.of_nat (S k) + 1) = Ok (assocN_last (i0 + N.of_nat (S k) + 1) (keyed idx rest))) as Hrest'.
      { intros k v' Hk. replace (i0 + N.of_nat (S k) + 1) with (i0 + 1 + N.of_nat k + 1) by lia. auto. }
      destruct o as [x|].
      + assert (idx x = Some (i0 + 1)) as Hx.
        { pose proof (of_slot_inv _ _ _ Ho) as Hy. destruct (unused v); [discriminate Hy|].
          destruct Hy as (y & Hy & [= ->]). eauto. }
        rewrite (keyed_cons idx _ _ _ Hx). cbn [map fst length]. split; [|split].
        * intros j [<-|Hj]; [lia|]. apply Hrange in Hj. lia.
        * constructor; assumption.
        * intros [|k] v' Hk; rewrite assocN_last_cons by exact Hfresh.
          -- inversion Hk; subst v'. rewrite N.add_0_r, N.eqb_refl. exact Ho.
          -- replace (i0 + N.of_nat (S k) + 1 =? i0 + 1) with false by (symmetry; apply N.eqb_neq; lia). auto.
      + split; [|split; [exact Hnd|]].
        * intros j Hj. apply Hrange in Hj. cbn [length]. lia.
        * intros [|k] v' Hk; [|auto]. inversion Hk; subst v'. rewrite N.add_0_r, assocN_last_none by exact Hfresh. exact Ho.
  Qed.

  Lemma walk_in : forall vs i0 l, walk vs i0 = Ok l -> forall x, In x l -> exists v i, In v vs /\ dec1 v i = Ok x.
  Proof.
    induction vs as [|v r IH]; intros i0 l H x Hx; [apply Ok_inj in H as <-; destruct Hx|].
    rewrite walk_cons in H. apply bind_ok_inv in H as (rest & Hrest & H). apply bind_ok_inv in H as (o & Ho & H).
    assert (In x rest -> exists v' i, In v' (v :: r) /\ dec1 v' i = Ok x) as Hold.
    { intros Hin. destruct (IH _ _ Hrest x Hin) as (v' & i & Hv' & Hd). exists v', i. split; [right; exact Hv' | exact Hd]. }
    apply Ok_inj in H as <-. destruct o as [y|]; [|auto]. destruct Hx as [->|Hx]; [|auto].
    apply of_slot_inv in Ho. destruct (unused v); [discriminate Ho|]. destruct Ho as (y & Hy & [= ->]).
    exists v, (i0 + 1). split; [left; reflexivity | exact Hy].
  Qed.

  Lemma walk_ok : forall vs i0,
    (forall k v, nth_error vs k = Some v -> exists o, of_slot v (i0 + N.of_nat k + 1) = Ok o) -> exists l, walk vs i0 = Ok l.
  Proof.
    induction vs as [|v r IH]; intros i0 H; [eexists; reflexivity|]. rewrite walk_cons.
    destruct (IH (i0 + 1)) as [rest ->].
    { intros k v' Hk. replace (i0 + 1 + N.of_nat k + 1) with (i0 + N.of_nat (S k) + 1) by lia. apply H. exact Hk. }
    destruct (H 0%nat v eq_refl) as [o Ho]. rewrite N.add_0_r in Ho. rewrite Ho. eexists; reflexivity.
  Qed.

  Lemma walk_single v i p : walk [v] i = Ok p -> of_slot v (i + 1) = Ok (assocN_last (i + 1) (keyed idx p)).
  Proof.
    intros H. destruct (walk_spec _ _ _ H) as (_ & _ & Hs). specialize (Hs 0%nat v eq_refl).
    rewrite N.add_0_r in Hs. exact Hs.
  Qed.

  (* what slot k contributes to the whole list is what it decodes to on its own: both are [of_slot] of it *)
  Theorem walk_reads_slotwise vs i0 :
    (forall k s, nth_error vs k = Some s -> exists p, walk [s] (i0 + N.of_nat k) = Ok p) ->
    exists l, walk vs i0 = Ok l /\
      forall k s p, nth_error vs k = Some s -> walk [s] (i0 + N.of_nat k) = Ok p ->
        assocN_last (i0 + N.of_nat k + 1) (keyed idx l) = assocN_last (i0 + N.of_nat k + 1) (keyed idx p).
  Proof.
    intros H. destruct (walk_ok vs i0) as [l Hl].
    { intros k s Hk. destruct (H k s Hk) as [p Hp]. apply walk_single in Hp. eauto. }
    exists l. split; [exact Hl|]. intros k s p Hk Hp. apply walk_single in Hp.
    destruct (walk_spec _ _ _ Hl) as (_ & _ & Hs). rewrite (Hs k s Hk) in Hp. apply Ok_inj in Hp. exact Hp.
  Qed.

  Lemma table_nth n l slots : table n l = Ok slots ->
    length slots = n /\ forall k s, nth_error slots k = Some s -> slot_of l (N.of_nat k) = Ok s.
  Proof. apply mapM_range. Qed.

  Lemma table_forall (P : val -> Prop) n l slots :
    table n l = Ok slots -> (forall x v, In x l -> enc1 x = Ok v -> P v) -> P empty -> Forall P slots.
  Proof.
    intros Ht Henc Hempty. eapply mapM_forall; [|exact Ht]. unfold slot_of. intros i v Hv.
    destruct (assocN_last _ _) as [x|] eqn:Ex; [|apply Ok_inj in Hv as <-; exact Hempty].
    apply assocN_last_in, in_keyed in Ex as [Hin _]. eauto.
  Qed.

  (* ENCODE, THEN DECODE: a number whose slot is in use is read back as the object written there, as far as one written
     slot reads back ([re x i]: x as the decoder rebuilds it at number i) *)
  Theorem table_reads_back (re : T -> N -> T) n l slots :
    table n l = Ok slots -> unused empty = true ->
    (forall x v i, In x l -> enc1 x = Ok v -> unused v = false -> dec1 v i = Ok (re x i)) ->
    exists l', walk slots 0 = Ok l' /\
      forall k x v, assocN_last (N.of_nat k + 1) (keyed idx l) = Some x ->
        nth_error slots k = Some v -> unused v = false ->
        assocN_last (N.of_nat k + 1) (keyed idx l') = Some (re x (N.of_nat k + 1)).
  Proof.
    intros Ht Hempty Hre. destruct (table_nth _ _ _ Ht) as [_ Hslot].
    assert (forall k v, nth_error slots k = Some v ->
              of_slot v (N.of_nat k + 1) = Ok (if unused v then None
                                               else option_map (fun x => re x (N.of_nat k + 1))
                                                               (assocN_last (N.of_nat k + 1) (keyed idx l)))) as Hone.
    { intros k v Hk. apply Hslot in Hk. unfold slot_of in Hk.
      destruct (unused v) eqn:Eu; [apply of_slot_free; exact Eu | rewrite (of_slot_taken _ _ Eu)].
      destruct (assocN_last _ _) as [x|] eqn:Ex; [|apply Ok_inj in Hk; congruence].
      apply assocN_last_in, in_keyed in Ex as [Hin _]. rewrite (Hre x v _ Hin Hk Eu). reflexivity. }
    destruct (walk_ok slots 0) as [l' Hl'].
    { intros k v Hk. rewrite N.add_0_l. eauto. }
    exists l'. split; [exact Hl'|]. intros k x v Hx Hk Hu.
    destruct (walk_spec _ _ _ Hl') as (_ & _ & Hs). specialize (Hs k v Hk).
    rewrite N.add_0_l, (Hone k v Hk), Hu, Hx in Hs. apply Ok_inj in Hs. symmetry. exact Hs.
  Qed.

  (* DECODE, THEN ENCODE: slots that are either the empty record or re-encode to themselves give back the very table *)
  Theorem walk_table slots l :
    walk slots 0 = Ok l ->
    Forall (fun v => if unused v then v = empty else forall i x, dec1 v i = Ok x -> enc1 x = Ok v) slots ->
    table (length slots) l = Ok slots.
  Proof.
    intros Hw Hed. destruct (walk_spec _ _ _ Hw) as (_ & _ & Hs). unfold table.
    assert (forall k v, nth_error slots k = Some v -> slot_of l (N.of_nat k) = Ok v) as Hone.
    { intros k v Hk. specialize (Hs k v Hk). rewrite N.add_0_l in Hs. apply of_slot_inv in Hs. unfold slot_of.
      rewrite Forall_forall in Hed. specialize (Hed v (nth_error_In _ _ Hk)). destruct (unused v).
      - rewrite Hs. congruence.
      - destruct Hs as (x & Hx & ->). eauto. }
    apply mapM_range. auto.
  Qed.
End SlotTable.

Arguments walk_spec {T} idx {unused dec1} dec1_idx {vs i0 l} _.
Arguments walk_in {T unused dec1 vs i0 l} _ x _.
Arguments walk_reads_slotwise {T} idx {unused dec1} dec1_idx vs i0 _.
Arguments table_nth {T idx enc1 empty n l slots} _.
Arguments table_forall {T idx enc1 empty P n l slots} _ _ _.
Arguments table_reads_back {T} idx {unused dec1 enc1 empty} dec1_idx re {n l slots} _ _ _.
Arguments walk_table {T} idx {unused dec1 enc1 empty} dec1_idx {slots l} _ _.
