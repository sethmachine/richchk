(* STR / STRx: decode then encode reproduces the payload, for every payload that decodes; a table holding anything
   but NUL-free 7-bit text is refused by the encoder; the decoder's only exceptions are struct.error and UnicodeDecodeError. *)
From Coq Require Import String NArith List Bool Lia PeanoNat.
From RC Require Import lib.Result lib.Bytes lib.Utf8 model.Str.
Import ListNotations.
Local Open Scope N_scope.

Definition join (strs : list (list N)) : bytes := concat (map (fun s => s ++ [0]) strs).

(* the successful runs of the string loop.  At a NUL the relation also keeps the function's own equation for the rest,
   which C06_str.split_nul_spec hands on. *)
Inductive nul_run : list N -> bytes -> list (list N) -> Prop :=
| nul_run_end : nul_run [] [] []
| nul_run_nul cur r strs : split_nul [] r = Ok strs -> nul_run [] r strs -> nul_run cur (0 :: r) (rev cur :: strs)
| nul_run_byte cur b r strs : 0 < b < 128 -> nul_run (b :: cur) r strs -> nul_run cur (b :: r) strs.

Lemma split_nul_run : forall bs cur strs, split_nul cur bs = Ok strs -> nul_run cur bs strs.
Proof.
  induction bs as [|b r IH]; intros cur strs H; simpl in H.
  - destruct cur; [|discriminate]. inversion H. constructor.
  - destruct (128 <=? b) eqn:E128; [discriminate|]. apply N.leb_gt in E128.
    destruct (N.eqb_spec b 0) as [->|E0].
    + inv_bind H as rest Hr H. inversion H. constructor; auto.
    + constructor; [lia | auto].
Qed.

Lemma split_nul_join bs cur strs :
  split_nul cur bs = Ok strs -> Forall (fun c => 0 < c /\ c < 128) cur ->
  rev cur ++ bs = join strs /\ Forall (Forall (fun c => 0 < c /\ c < 128)) strs.
Proof.
  intros H. apply split_nul_run in H. induction H as [|cur r strs _ _ IH|cur b r strs Hb _ IH]; intros Hc.
  - split; [reflexivity | constructor].
  - destruct (IH (Forall_nil _)) as [Hj Ha]. simpl in Hj. split.
    + unfold join. simpl. fold (join strs). rewrite <- Hj, <- app_assoc. reflexivity.
    + constructor; [apply Forall_rev; assumption | assumption].
  - destruct IH as [Hj Ha]; [constructor; [lia | assumption]|].
    split; [|assumption]. simpl in Hj. rewrite <- app_assoc in Hj. exact Hj.
Qed.

Lemma no_nul_iff s : existsb (N.eqb 0) s = false <-> ~ In 0 s.
Proof.
  rewrite <- not_true_iff_false, existsb_exists. split; intros H C; apply H.
  - exists 0. split; [exact C | reflexivity].
  - destruct C as (x & Hx & Ex). apply N.eqb_eq in Ex. subst x. exact Hx.
Qed.

Lemma enc_string_inv s bs : enc_string s = Ok bs <-> Forall (fun c => 0 < c /\ c < 128) s /\ bs = s ++ [0].
Proof.
  unfold enc_string. split.
  - intros H. inv_bind H as u Eu H.
    destruct (negb (Nat.eqb (length u) (length s)) || existsb (N.eqb 0) u) eqn:E; [discriminate|].
    apply orb_false_iff in E as [E1 E2]. apply negb_false_iff, Nat.eqb_eq in E1.
    destruct (utf8_encode_ascii_inv s u Eu) as [-> Hall]; [rewrite E1; constructor|].
    apply Ok_inj in H as <-. rewrite firstn_all. split; [|reflexivity].
    apply no_nul_iff in E2. rewrite Forall_forall in *. intros c Hin. split; [|exact (Hall c Hin)].
    destruct (N.eq_dec c 0) as [->|]; [contradiction | lia].
  - intros [Hs ->]. rewrite Forall_forall in Hs.
    assert (Ha : Forall (fun c => c < 128) s) by (apply Forall_forall; intros c Hc; apply Hs, Hc).
    assert (Hz : existsb (N.eqb 0) s = false) by (apply no_nul_iff; intros C; apply Hs in C; lia).
    rewrite (utf8_encode_ascii s Ha). cbn [bind]. rewrite Nat.eqb_refl, Hz, firstn_all. reflexivity.
Qed.

Lemma enc_strings_join strs :
  Forall (Forall (fun c => 0 < c /\ c < 128)) strs -> enc_strings strs = Ok (join strs).
Proof.
  induction 1 as [|s r Hs Hr IH]; [reflexivity|]. simpl. rewrite (proj2 (enc_string_inv s _) (conj Hs eq_refl)), IH. reflexivity.
Qed.

(* what is not NUL-free 7-bit text is refused: no table is written (before the fix cee72c9 the first len(s)
   bytes of the UTF-8 form were written: "é" became the lone byte C3) *)
Lemma enc_string_refuses s :
  (exists c, In c s /\ (c = 0 \/ 128 <= c)) -> exists e, enc_string s = Raise e.
Proof.
  intros (c & Hin & Hc). destruct (enc_string s) as [bs|e] eqn:E; [|eauto].
  apply enc_string_inv in E as [Hall _]. rewrite Forall_forall in Hall. specialize (Hall c Hin). lia.
Qed.

Lemma enc_strings_refuses strs s :
  In s strs -> (exists c, In c s /\ (c = 0 \/ 128 <= c)) -> exists e, enc_strings strs = Raise e.
Proof.
  induction strs as [|x r IH]; intros Hin Hbad; [destruct Hin|]. simpl.
  destruct (enc_string x) as [a|e] eqn:Ex; [|simpl; eauto]. simpl.
  destruct Hin as [->|Hin].
  - destruct (enc_string_refuses s Hbad) as [e He]. congruence.
  - destruct (IH Hin Hbad) as [e ->]. simpl. eauto.
Qed.

(* the successful runs of the offset loop *)
Inductive offsets_run (w : nat) : N -> bytes -> list N -> bytes -> Prop :=
| offsets_run_done bs : offsets_run w 0 bs [] bs
| offsets_run_step n bs v r offs rest :
    n <> 0 -> unpack w bs = Ok (v, r) -> offsets_run w (n - 1) r offs rest -> offsets_run w n bs (v :: offs) rest.

Lemma read_offsets_run w : forall fuel n bs offs rest,
  read_offsets fuel w n bs = Ok (offs, rest) -> offsets_run w n bs offs rest.
Proof.
  induction fuel as [|fuel IH]; intros n bs offs rest H; simpl in H; destruct (N.eqb_spec n 0) as [->|Hn].
  - inversion H. constructor.
  - discriminate.
  - inversion H. constructor.
  - inv_bind H as vr Hu H. destruct vr as [v r]. inv_bind H as p Hr H. destruct p as [offs' rest']. inversion H; subst.
    econstructor; eauto.
Qed.

Lemma read_offsets_roundtrip w fuel n bs offs rest :
  read_offsets fuel w n bs = Ok (offs, rest) -> bytes_ok bs ->
  exists pre, enc_offsets w n offs = Ok pre /\ pre ++ rest = bs.
Proof.
  intros H. apply read_offsets_run in H. induction H as [bs|n bs v r offs rest Hn Hu _ IH]; intros Hok.
  - exists []. auto.
  - apply N.eqb_neq in Hn.
    destruct (unpack_pack _ _ _ _ Hok Hu) as (p1 & Hp & <- & _). apply bytes_ok_app_inv in Hok as [_ Hok].
    destruct (IH Hok) as (p2 & He & <-).
    exists (p1 ++ p2). simpl. rewrite Hn, Hp. simpl. rewrite He. split; [reflexivity | symmetry; apply app_assoc].
Qed.

Lemma str_decode_inv w bs m : str_decode w bs = Ok m ->
  exists r1 r2, unpack w bs = Ok (ss_num m, r1) /\
                read_offsets (length r1) w (ss_num m) r1 = Ok (ss_offsets m, r2) /\
                split_nul [] r2 = Ok (ss_strings m).
Proof.
  unfold str_decode. intros H.
  inv_bind H as nr Hn H. destruct nr as [n r1]. inv_bind H as offs Ho H. destruct offs as [offs r2].
  inv_bind H as strs Hs H. inversion H. simpl in *. eauto.
Qed.

Lemma str_encode_inv w m bs : str_encode w m = Ok bs <->
  exists h o s, pack w (ss_num m) = Ok h /\ enc_offsets w (ss_num m) (ss_offsets m) = Ok o /\
                enc_strings (ss_strings m) = Ok s /\ bs = h ++ o ++ s.
Proof.
  unfold str_encode. split.
  - intros H. inv_bind H as h Hh H. inv_bind H as o Ho H. inv_bind H as s Hs H. apply Ok_inj in H as <-.
    exists h, o, s. auto.
  - intros (h & o & s & -> & -> & -> & ->). reflexivity.
Qed.

Theorem str_roundtrip w bs m :
  bytes_ok bs -> str_decode w bs = Ok m -> str_encode w m = Ok bs.
Proof.
  intros Hok H. apply str_decode_inv in H as (r1 & r2 & Hn & Ho & Hs).
  destruct (unpack_pack _ _ _ _ Hok Hn) as (p1 & Hp1 & <- & _). apply bytes_ok_app_inv in Hok as [_ Hok].
  destruct (read_offsets_roundtrip _ _ _ _ _ _ Ho Hok) as (p2 & Hp2 & <-).
  destruct (split_nul_join _ _ _ Hs (Forall_nil _)) as [Hj Ha]. simpl in Hj. rewrite Hj.
  apply str_encode_inv. exists p1, p2, (join (ss_strings m)). auto using enc_strings_join.
Qed.

Theorem str_encode_refuses w m s :
  In s (ss_strings m) -> (exists c, In c s /\ (c = 0 \/ 128 <= c)) -> exists e, str_encode w m = Raise e.
Proof.
  intros Hin Hbad. destruct (str_encode w m) as [bs|e] eqn:E; [|eauto].
  apply str_encode_inv in E as (h & o & s' & _ & _ & Es & _).
  destruct (enc_strings_refuses _ _ Hin Hbad) as [e He]. congruence.
Qed.

(* the decoder's exceptions: struct.error (truncated data) and UnicodeDecodeError (a byte >= 128); never OutOfFuel - the
   offset loop, its fuel (the byte count) used up, raises StructError as the next unpack would, and the string loop
   recurses on its input *)
Lemma read_offsets_raises w e : forall fuel n bs, read_offsets fuel w n bs = Raise e -> e = StructError.
Proof.
  induction fuel as [|fuel IH]; intros n bs H; simpl in H; destruct (n =? 0); try discriminate.
  - inversion H. reflexivity.
  - apply bind_raise_inv in H as [H | (p & _ & H)]; [exact (unpack_raises _ _ _ H)|].
    apply bind_ret_raise_inv in H. exact (IH _ _ H).
Qed.

Lemma split_nul_raises e : forall bs cur, split_nul cur bs = Raise e -> e = StructError \/ e = UnicodeError.
Proof.
  induction bs as [|b r IH]; intros cur H; simpl in H.
  - destruct cur; inversion H. auto.
  - destruct (128 <=? b); [inversion H; auto|]. destruct (b =? 0); [|exact (IH _ H)].
    apply bind_ret_raise_inv in H. exact (IH _ H).
Qed.

Lemma str_decode_raises w bs e : str_decode w bs = Raise e -> e = StructError \/ e = UnicodeError.
Proof.
  unfold str_decode. intros H.
  apply bind_raise_inv in H as [H | (p & _ & H)]; [left; exact (unpack_raises _ _ _ H)|].
  apply bind_raise_inv in H as [H | (q & _ & H)]; [left; exact (read_offsets_raises _ _ _ _ _ H)|].
  apply bind_ret_raise_inv in H. exact (split_nul_raises _ _ _ H).
Qed.
