(* The other direction of the UTF-8 round trip: what the encoder writes, the strict decoder reads back as the same code
   points (the bounds the decoder puts on the second byte rule out exactly the overlong forms and surrogates, which the
   encoder never produces). *)
From Coq Require Import String NArith List Bool Lia.
From RC Require Import lib.Result lib.Bytes lib.Utf8.
Import ListNotations.
Local Open Scope N_scope.

(* each test of the decoder, in the order it makes them, is decided by the bounds on the digits *)
Lemma utf8_decode_cp c a : cp_bytes c a ->
  forall fuel r, utf8_decode_fuel (S fuel) (a ++ r) = (do t <- utf8_decode_fuel fuel r; Ok (c :: t)).
Proof.
  intros Hc fuel r. destruct Hc; cbn [app utf8_decode_fuel]; unfold is_cont.
  - rewrite (proj2 (N.ltb_lt _ _)) by assumption. reflexivity.
  - rewrite (proj2 (N.ltb_ge _ 128)), (proj2 (range_iff 194 _ _)), (proj2 (range_iff 128 _ _)), !add_sub_l by lia.
    reflexivity.
  - rewrite (proj2 (N.ltb_ge _ 128)), (out_of_range 194), (proj2 (range_iff 224 _ _)), (proj2 window_iff),
      (proj2 (range_iff 128 _ _)), !add_sub_l by lia.
    reflexivity.
  - rewrite (proj2 (N.ltb_ge _ 128)), (out_of_range 194), (out_of_range 224), (proj2 (range_iff 240 _ _)),
      (proj2 window_iff), !(proj2 (range_iff 128 _ _)), !add_sub_l by lia.
    reflexivity.
Qed.

Theorem utf8_encode_decode_fuel : forall s bs fuel,
  utf8_encode s = Ok bs -> (length s <= fuel)%nat -> utf8_decode_fuel fuel bs = Ok s.
Proof.
  induction s as [|c r IH]; intros bs fuel H Hf.
  - simpl in H. inversion H; subst bs. destruct fuel; reflexivity.
  - apply utf8_encode_cons_inv in H as (a & b & Ha & Hb & ->).
    destruct fuel as [|fuel]; [simpl in Hf; lia|].
    rewrite (utf8_decode_cp _ _ Ha), (IH b fuel Hb) by (simpl in Hf; lia). reflexivity.
Qed.

Lemma utf8_encode_length s : forall bs, utf8_encode s = Ok bs -> (length s <= length bs)%nat.
Proof.
  induction s as [|c r IH]; intros bs H; [apply PeanoNat.Nat.le_0_l|].
  apply utf8_encode_cons_inv in H as (a & b & Ha & Hb & ->).
  apply cp_bytes_length in Ha. specialize (IH b Hb). rewrite app_length. simpl. lia.
Qed.

Theorem utf8_encode_decode s bs : utf8_encode s = Ok bs -> utf8_decode bs = Ok s.
Proof. intros H. unfold utf8_decode. apply utf8_encode_decode_fuel; [exact H | apply utf8_encode_length; exact H]. Qed.

Lemma cp_bytes_ok c a : cp_bytes c a -> bytes_ok a.
Proof. destruct 1; repeat constructor; lia. Qed.

Lemma utf8_encode_bytes s bs : utf8_encode s = Ok bs -> bytes_ok bs.
Proof.
  revert bs. induction s as [|c r IH]; intros bs H; [simpl in H; inversion H; constructor|].
  apply utf8_encode_cons_inv in H as (a & b & Ha & Hb & ->).
  apply bytes_ok_app; [eapply cp_bytes_ok, Ha | apply IH, Hb].
Qed.

Lemma utf8_four_bytes s bs :
  utf8_encode s = Ok bs -> length bs = 4%nat ->
  (le_decode bs <? 2 ^ 32) = true /\ le_encode 4 (le_decode bs) = bs /\ utf8_decode bs = Ok s.
Proof.
  intros Hbs El. pose proof (utf8_encode_bytes _ _ Hbs : bytes_ok bs) as Hok.
  pose proof (le_decode_bound bs Hok) as Hlt. rewrite El in Hlt.
  split; [apply N.ltb_lt; exact Hlt|]. split; [rewrite <- El; exact (le_encode_decode bs Hok)|].
  exact (utf8_encode_decode _ _ Hbs).
Qed.
