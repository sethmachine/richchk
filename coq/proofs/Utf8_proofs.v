(* What the strict UTF-8 decoder accepts, the encoder writes back byte for byte (all four length classes,
   overlong forms, surrogates and code points above U+10FFFF being rejected by the decoder). *)
From Coq Require Import String NArith List Bool Lia.
From RC Require Import lib.Result lib.Bytes lib.Utf8.
Import ListNotations.
Local Open Scope N_scope.

Lemma le_add a b : a <= b -> exists d, b = a + d.
Proof. exists (b - a). lia. Qed.

(* Each branch of the decoder reads bytes a and yields c with cp_bytes c a: write every byte as its
   offset plus a digit, and the decoder's tests are the bounds the table asks for. *)
Theorem utf8_decode_encode : forall fuel bs s, utf8_decode_fuel fuel bs = Ok s -> utf8_encode s = Ok bs.
Proof.
  induction fuel as [|fuel IH]; intros bs s H.
  - destruct bs; simpl in H; inversion H; reflexivity.
  - destruct bs as [|b0 r0]; [simpl in H; inversion H; reflexivity|].
    cbn [utf8_decode_fuel] in H. unfold is_cont in H.
    assert (K : forall c a r, (do t <- utf8_decode_fuel fuel r; Ok (c :: t)) = Ok s -> cp_bytes c a ->
                utf8_encode s = Ok (a ++ r)).
    { intros c a r Hs Hc. inv_bind Hs as t Ht Hk. apply Ok_inj in Hk as <-.
      cbn [utf8_encode]. rewrite (utf8_encode_cp_complete _ _ Hc), (IH _ _ Ht). reflexivity. }
    destruct (b0 <? 128) eqn:E.
    { apply (K _ [b0] _ H), cp_1, N.ltb_lt, E. }
    clear E. destruct (_ && _) eqn:E in H.
    { destruct r0 as [|b1 r1]; [discriminate|]. destruct (_ && _) eqn:C1 in H; [|discriminate].
      apply (K _ [b0; b1] _ H). apply range_iff in E, C1.
      destruct (le_add 192 b0) as [h ->], (le_add 128 b1) as [d0 ->]; try lia.
      rewrite !add_sub_l. apply cp_2; lia. }
    clear E. destruct (_ && _) eqn:E in H.
    { destruct r0 as [|b1 [|b2 r2]]; try discriminate. destruct (_ && _) eqn:C in H; [|discriminate].
      apply (K _ [b0; b1; b2] _ H). apply andb_true_iff in C as [C1 C2]. apply range_iff in E, C2. apply window_iff in C1.
      destruct (le_add 224 b0) as [h ->], (le_add 128 b1) as [d1 ->], (le_add 128 b2) as [d0 ->]; try lia.
      rewrite !add_sub_l. apply cp_3; lia. }
    clear E. destruct (_ && _) eqn:E in H; [|discriminate].
    destruct r0 as [|b1 [|b2 [|b3 r3]]]; try discriminate. destruct (_ && _) eqn:C in H; [|discriminate].
    apply (K _ [b0; b1; b2; b3] _ H). apply andb_true_iff in C as [C C3]. apply andb_true_iff in C as [C1 C2].
    apply range_iff in E, C2, C3. apply window_iff in C1.
    destruct (le_add 240 b0) as [h ->], (le_add 128 b1) as [d2 ->], (le_add 128 b2) as [d1 ->], (le_add 128 b3) as [d0 ->];
      try lia.
    rewrite !add_sub_l. apply cp_4; lia.
Qed.
