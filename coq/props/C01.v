(* C01 — binary CHK round trip is byte-exact.  Statements only. *)
From Coq Require Import String NArith List Bool.
From RC Require Import lib.Result lib.Bytes model.Layout model.Str model.ChkIo
  proofs.Layout_proofs proofs.Str_proofs proofs.ChkIo_proofs proofs.C01_proofs.
Import ListNotations.

(* every well-formed CHK: any number, order and duplication of chunks (induction on wf_chk), arbitrary
   4-byte names, arbitrary payload bytes; recognised sections at a legal size *)
Theorem C01_chk_roundtrip :
  forall bs secs, wf_chk bs -> bytes_ok bs -> chk_decode bs = Ok secs -> chk_encode secs = Ok bs.
Proof. exact chk_roundtrip. Qed.
Print Assumptions C01_chk_roundtrip.

(* any table-like section, generic in the layout: what was read is what is written *)
Theorem C01_layout_roundtrip :
  forall l fuel bs v rest, bytes_ok bs -> wf_l l = true -> decode_l fuel l bs = Ok (v, rest) ->
    exists pre, encode_l l v = Ok pre /\ pre ++ rest = bs.
Proof. exact layout_roundtrip. Qed.
Print Assumptions C01_layout_roundtrip.

(* STR (w = 2) and STRx (w = 4): any count, any offsets (shared, unsorted, interior, dangling),
   any NUL-terminated 7-bit data *)
Theorem C01_str_roundtrip :
  forall w bs m, bytes_ok bs -> str_decode w bs = Ok m -> str_encode w m = Ok bs.
Proof. exact str_roundtrip. Qed.
Print Assumptions C01_str_roundtrip.

(* the generated encode layouts are the generated decode layouts (up to the strict-count flag),
   are well-formed, and every registered name is exactly four bytes *)
Theorem C01_generated_tables_symmetric : table_ok section_table = true.
Proof. exact section_table_ok. Qed.
Print Assumptions C01_generated_tables_symmetric.

(* not vacuous: a concrete CHK meets the premises of C01_chk_roundtrip, and decodes *)
Theorem C01_example_is_wellformed_and_decodes :
  (wf_chk example_chk /\ bytes_ok example_chk) /\
  exists secs, chk_decode example_chk = Ok secs /\ length secs = 5.
Proof. exact (conj example_chk_wf example_chk_decodes). Qed.
Print Assumptions C01_example_is_wellformed_and_decodes.
