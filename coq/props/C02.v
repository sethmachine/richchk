(* C02 — unedited load/save preserves every value the game reads.  Statements, each closed in a line or two from proofs/.

   FULL STATEMENT: forall bs, accepts bs -> load_save bs = Ok bs' -> spec_view bs' = spec_view bs, and a map that cannot
   be represented raises.  FALSE of the unchanged code outside the guards recorded as known findings (64-slot MRGN,
   weapons no unit carries, interior gaps, unused fields).  Proved here, in parts: flag words, one location slot,
   unmodelled sections and raw entries, the string table, the values of a supported trigger entry, the positions of
   entries and triggers.  The whole-map claim is judged by tools/c02.py with an independent reader on the implementation's
   output; the pipeline model is tied to the implementation byte for byte. *)
From Coq Require Import String NArith List Bool.
From RC Require Import lib.Result lib.Bytes model.Layout model.Flags model.ChkIo model.TrigTable model.RichCodec model.RichIo
  proofs.Flags_proofs proofs.C03_proofs proofs.C10_proofs proofs.C08_proofs proofs.C03_strings proofs.C02_entries proofs.C02_triggers gen.GenConsts model.Str model.StrEditor gen.GenFlags gen.GenTrig spec.SpecTrig.
Import ListNotations.
Local Open Scope string_scope.
Local Open Scope list_scope.
Local Open Scope N_scope.

(* the bits the format defines survive the cycle; reserved bits are dropped *)
Theorem C02_flag_words_keep_their_defined_bits_partial :
  forall c nb x, num_roundtrip c nb x -> exists bs, flags_of c x = Ok bs /\ flags_to c bs = Ok (x mod 2 ^ nb).
Proof. exact flags_roundtrip. Qed.
Print Assumptions C02_flag_words_keep_their_defined_bits_partial.

Theorem C02_location_slot_partial :
  forall L x1 y1 x2 y2 sid fl i,
    fl < 64 -> last_id_guard L sid -> loc_is_unused (loc_val x1 y1 x2 y2 sid fl) = false ->
    exists l, mrgn_decode_locs L [loc_val x1 y1 x2 y2 sid fl] i = Ok [l] /\
              l_idx l = Some (i + 1) /\ loc_encode L l = Ok (loc_val x1 y1 x2 y2 sid fl).
Proof. exact location_slot_roundtrip. Qed.
Print Assumptions C02_location_slot_partial.

Theorem C02_unknown_entries_untouched_partial :
  forall cx cx' table enum idf flagc fields vals,
    NoDup fields -> length vals = length fields ->
    enum_has enum (vint idf (entry_val fields vals)) = false ->
    exists e, decode_entry_of cx table enum idf flagc fields (entry_val fields vals) = Ok (Some e) /\
              encode_entry_of cx' table flagc fields e = Ok (entry_val fields vals).
Proof. intros cx cx' table enum idf flagc fields vals Hnd Hlen Hout. apply raw_entry_roundtrip; auto. Qed.
Print Assumptions C02_unknown_entries_untouched_partial.

Theorem C02_unmodelled_sections_untouched_partial :
  forall d r wd d' i s,
    load d = Ok r -> nth_error d i = Some s -> unmodelled s = true -> save wd r = Ok d' -> nth_error d' i = Some s.
Proof. intros d r wd d' i s Hl Hn Hu Hs. exact (unmodelled_section_survives d r r wd d' i s Hl Hn Hu eq_refl Hs). Qed.
Print Assumptions C02_unmodelled_sections_untouched_partial.

(* What decode_chk puts into the rich map mentions only texts the map's own string table resolves, so the rebuild before
   a save adds nothing and the STR section is emitted as loaded, in place: every string number keeps its text. *)
Theorem C02_unedited_save_emits_the_loaded_string_table :
  forall d r wd d' m bin i,
    load d = Ok r -> strs_named "STR " d = [m] ->
    filter (named "STR ") r = [RDecodedStr "STR " 2 m] -> wf_table 2 m bin ->
    save wd r = Ok d' -> nth_error d i = Some (DStr "STR " 2 m) ->
    nth_error d' i = Some (DStr "STR " 2 m).
Proof. exact unedited_save_emits_the_loaded_str. Qed.
Print Assumptions C02_unedited_save_emits_the_loaded_string_table.

(* "every numeric setting keeps its value, every string reference resolves to the same text", for one trigger ACTION of
   any registered type through an unedited load (cx) and save (cx'): the record written back holds the same type number,
   the same five flag bits and, in every argument field, the re-encoding of what was decoded from it (a sound's play time
   as it was read); unused fields are written as 0 (recorded finding unused-fields-zeroed) *)
Theorem C02_a_supported_action_keeps_its_values :
  forall cx cx' v key args fl v',
    decode_entry_of cx gen_action_table "TriggerActionId" "_action_id" action_flags_codec action_record_fields v
      = Ok (Some (ERich key args fl)) ->
    encode_entry_of cx' gen_action_table action_flags_codec action_record_fields (ERich key args fl) = Ok v' ->
    (vint "_flags" v < 256)%N ->
    exists te s,
      find_entry key gen_action_table = Some te /\ In s spec_action_table /\ se_id s = key /\
      vint "_action_id" v' = vint "_action_id" v /\
      vint "_flags" v' = (vint "_flags" v mod 2 ^ 5)%N /\
      (forall a c f, In (a, c, f) (te_dec te) ->
         exists x, dec_arg cx c (vint f v) = Ok x /\
                   (enc_arg cx' c x = Ok (vint f v') \/ (c = CRaw /\ vint f v' = vint f v))) /\
      (forall f, In f action_record_fields -> f <> "_flags" -> expected_src s f = EZero -> vint f v' = 0%N) /\
      (forall x, In x (te_dec te) <-> In x (se_args s)) /\
      (exists r', v' = rec_val action_record_fields r').
Proof. exact action_values_survive. Qed.
Print Assumptions C02_a_supported_action_keeps_its_values.

Theorem C02_a_supported_condition_keeps_its_values :
  forall cx cx' v key args fl v',
    decode_entry_of cx gen_condition_table "TriggerConditionId" "_condition_id" condition_flags_codec condition_record_fields v
      = Ok (Some (ERich key args fl)) ->
    encode_entry_of cx' gen_condition_table condition_flags_codec condition_record_fields (ERich key args fl) = Ok v' ->
    (vint "_flags" v < 256)%N ->
    exists te s,
      find_entry key gen_condition_table = Some te /\ In s spec_condition_table /\ se_id s = key /\
      vint "_condition_id" v' = vint "_condition_id" v /\
      vint "_flags" v' = (vint "_flags" v mod 2 ^ 5)%N /\
      (forall a c f, In (a, c, f) (te_dec te) ->
         exists x, dec_arg cx c (vint f v) = Ok x /\
                   (enc_arg cx' c x = Ok (vint f v') \/ (c = CRaw /\ vint f v' = vint f v))) /\
      (forall f, In f condition_record_fields -> f <> "_flags" -> expected_src s f = EZero -> vint f v' = 0%N) /\
      (forall x, In x (te_dec te) <-> In x (se_args s)) /\
      (exists r', v' = rec_val condition_record_fields r').
Proof. exact condition_values_survive. Qed.
Print Assumptions C02_a_supported_condition_keeps_its_values.

(* ... where re-encoding what was decoded gives the SAME number for plain numbers and enumeration members *)
Theorem C02_numeric_arguments_keep_their_number :
  forall cx cx' c n x n',
    (c = CRaw \/ exists E, c = CEnum E) -> dec_arg cx c n = Ok x -> enc_arg cx' c x = Ok n' -> n' = n.
Proof. exact numeric_codec_same_number. Qed.
Print Assumptions C02_numeric_arguments_keep_their_number.

(* ... and, for a string argument, a number that resolves in the table being written to the same text *)
Theorem C02_string_arguments_keep_their_text :
  forall cx cx' n x n',
    (N.of_nat (length (sl_by_id (cx_str cx'))) <= 1000000)%N ->
    dec_arg cx CStr n = Ok x -> enc_arg cx' CStr x = Ok n' -> str_by_id (cx_str cx') n' = str_by_id (cx_str cx) n.
Proof. exact string_codec_same_text. Qed.
Print Assumptions C02_string_arguments_keep_their_text.

(* one WHOLE trigger: when its condition and action lists have no gap (no empty entry before a used one; the gap case is
   the recorded finding interior-gap-compacted), every entry is written back AT ITS OWN POSITION as the encoding of what
   was decoded there, every empty position as the all-zero entry *)
Theorem C02_trigger_entries_stay_in_place_when_there_is_no_gap :
  forall cx cx' v t v',
    trigger_decode cx v = Ok t -> trigger_encode cx' t = Ok v' ->
    length (vlist "_conditions" v) = N.to_nat NUM_CONDITIONS_PER_TRIGGER ->
    length (vlist "_actions" v) = N.to_nat NUM_ACTIONS_PER_TRIGGER ->
    (forall os, mapM (dec_cond cx) (vlist "_conditions" v) = Ok os -> gap_free os) ->
    (forall os, mapM (dec_act cx) (vlist "_actions" v) = Ok os -> gap_free os) ->
    (forall k slot, nth_error (vlist "_conditions" v) k = Some slot ->
       exists o, dec_cond cx slot = Ok o /\
         match o with
         | Some e => exists slot', nth_error (vlist "_conditions" v') k = Some slot' /\ enc_cond cx' e = Ok slot'
         | None => nth_error (vlist "_conditions" v') k = Some (empty_entry condition_record_fields)
         end) /\
    (forall k slot, nth_error (vlist "_actions" v) k = Some slot ->
       exists o, dec_act cx slot = Ok o /\
         match o with
         | Some e => exists slot', nth_error (vlist "_actions" v') k = Some slot' /\ enc_act cx' e = Ok slot'
         | None => nth_error (vlist "_actions" v') k = Some (empty_entry action_record_fields)
         end).
Proof. exact trigger_entries_stay_in_place. Qed.
Print Assumptions C02_trigger_entries_stay_in_place_when_there_is_no_gap.

(* ... and one level up: trigger k of the written TRIG section encodes what was decoded from trigger k of the read one; the
   number of triggers is kept (the size, 2400 bytes each, is C11) *)
Theorem C02_every_trigger_keeps_its_position :
  forall cx cx' v ts v',
    trig_decode cx v = Ok ts -> trig_encode cx' ts = Ok v' ->
    length (vlist "_triggers" v') = length (vlist "_triggers" v) /\
    forall k tv, nth_error (vlist "_triggers" v) k = Some tv ->
      exists t tv', trigger_decode cx tv = Ok t /\ trigger_encode cx' t = Ok tv' /\ nth_error (vlist "_triggers" v') k = Some tv'.
Proof. exact trig_section_triggerwise. Qed.
Print Assumptions C02_every_trigger_keeps_its_position.
