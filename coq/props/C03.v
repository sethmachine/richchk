(* C03 — unedited maps are rewritten byte-identically; saving is idempotent.  Statements, each closed in a line or two.

   FULL STATEMENT (over the pipeline model; not proved as one theorem):
     forall bs, EditorForm bs -> load_save bs = Ok bs        and
     forall bs b1, load_save bs = Ok b1 -> load_save b1 = Ok b1.
   FALSE of the unchanged code outside the guards recorded as known findings (64-slot MRGN, recomputed UPUS, weapons no
   unit carries).  Proved below, of the first clause: the slot codecs of MRGN and UPRP, the two whole tables and one
   trigger entry in editor form, the string table, the positional pass-through (flag words: props/C02.v); the second
   clause is refuted.  The whole-map claim rests on the byte-for-byte correspondence of the pipeline model with the
   implementation and the oracle run of tools/c03.py. *)
From Coq Require Import String NArith List Bool.
From RC Require Import lib.Result lib.Bytes model.Layout model.ChkIo model.RichCodec model.RichIo
  proofs.C03_proofs proofs.C10_proofs proofs.C03_refuted proofs.C08_proofs proofs.C03_strings proofs.C03_sections proofs.C03_entries model.TrigTable model.Str model.StrEditor gen.GenConsts gen.GenTrig spec.SpecTrig gen.GenFlags.
Import ListNotations.
Local Open Scope string_scope.
Local Open Scope list_scope.
Local Open Scope N_scope.

Definition C03_full_statement : Prop :=
  forall bs b1, load_save bs = Ok b1 -> load_save b1 = Ok b1.

(* a location slot in editor form (reserved elevation bits clear, name referenced by the last id of its text)
   is decoded with its 1-based index and encoded back to the identical record *)
Theorem C03_location_slot_roundtrip_partial :
  forall L x1 y1 x2 y2 sid fl i,
    fl < 64 -> last_id_guard L sid -> loc_is_unused (loc_val x1 y1 x2 y2 sid fl) = false ->
    exists l, mrgn_decode_locs L [loc_val x1 y1 x2 y2 sid fl] i = Ok [l] /\
              l_idx l = Some (i + 1) /\ loc_encode L l = Ok (loc_val x1 y1 x2 y2 sid fl).
Proof. exact location_slot_roundtrip. Qed.
Print Assumptions C03_location_slot_roundtrip_partial.

(* a unit-property slot with reserved bits clear and owner byte 0 likewise (editor-prefilled slots included:
   nothing is assumed about the percentages or amounts) *)
Theorem C03_unit_property_slot_roundtrip_partial :
  forall vs vu hp sh en res hang fl pad i,
    vs < 64 -> vu < 128 -> fl < 64 ->
    cuwp_is_unused (cuwp_val vs vu 0 hp sh en res hang fl pad) = false ->
    exists c, uprp_decode_slots [cuwp_val vs vu 0 hp sh en res hang fl pad] i = Ok [c] /\
              c_idx c = Some (i + 1) /\ cuwp_encode c = Ok (cuwp_val vs vu 0 hp sh en res hang fl pad).
Proof. exact cuwp_slot_roundtrip. Qed.
Print Assumptions C03_unit_property_slot_roundtrip_partial.

Theorem C03_unmodelled_sections_identical_partial :
  forall d r wd d' i s,
    load d = Ok r -> nth_error d i = Some s -> unmodelled s = true -> save wd r = Ok d' -> nth_error d' i = Some s.
Proof. intros d r wd d' i s Hl Hn Hu Hs. exact (unmodelled_section_survives d r r wd d' i s Hl Hn Hu eq_refl Hs). Qed.
Print Assumptions C03_unmodelled_sections_identical_partial.

(* The idempotence clause, stated above as C03_full_statement, is FALSE of the pipeline model (hence, the model being tied
   byte for byte, of the code): recorded finding uprp-slot-dropped-fields-only; tools/c03.py replays the witness on the
   implementation on every run. *)
Theorem C03_idempotence_refuted :
  exists bs b1 b2, load_save bs = Ok b1 /\ load_save b1 = Ok b2 /\ b1 <> b2.
Proof. exact idempotence_refuted. Qed.
Print Assumptions C03_idempotence_refuted.

Theorem C03_full_statement_is_false : ~ C03_full_statement.
Proof.
  intros H. destruct idempotence_refuted as (bs & b1 & b2 & H1 & H2 & Hne).
  specialize (H bs b1 H1). rewrite H in H2. inversion H2. contradiction.
Qed.
Print Assumptions C03_full_statement_is_false.

(* What decode_chk puts into the rich map mentions only texts the map's own string table resolves, so the rebuild before
   a save adds nothing and the STR section is emitted as loaded, in place: every string number keeps its text. *)
Theorem C03_unedited_save_emits_the_loaded_string_table :
  forall d r wd d' m bin i,
    load d = Ok r -> strs_named "STR " d = [m] ->
    filter (named "STR ") r = [RDecodedStr "STR " 2 m] -> wf_table 2 m bin ->
    save wd r = Ok d' -> nth_error d i = Some (DStr "STR " 2 m) ->
    nth_error d' i = Some (DStr "STR " 2 m).
Proof. exact unedited_save_emits_the_loaded_str. Qed.
Print Assumptions C03_unedited_save_emits_the_loaded_string_table.

(* whole tables in editor form: a location table of 255 slots, each all-zero or used with reserved elevation bits clear
   and its name referred to by the last id of its text, decodes to rich locations that encode back to exactly that table;
   likewise the 64-slot unit-property table (reserved bits clear, owner byte 0; editor-prefilled slots included) *)
Theorem C03_location_table_roundtrip_in_editor_form :
  forall L slots ls,
    length slots = N.to_nat MRGN_TRANSCODER_MAX_LOCATIONS -> Forall (editor_slot L) slots ->
    mrgn_decode L (mk_struct [("_locations"%string, VList slots)]) = Ok ls ->
    mrgn_encode L ls = Ok (mk_struct [("_locations"%string, VList slots)]).
Proof. exact mrgn_section_roundtrip_in_editor_form. Qed.
Print Assumptions C03_location_table_roundtrip_in_editor_form.

Theorem C03_unit_property_table_roundtrip_in_editor_form :
  forall slots cs,
    length slots = N.to_nat MAX_CUWP_SLOTS -> Forall editor_cuwp_slot slots ->
    uprp_decode (mk_struct [("_cuwp_slots"%string, VList slots)]) = Ok cs ->
    uprp_encode cs = Ok (mk_struct [("_cuwp_slots"%string, VList slots)]).
Proof. exact uprp_section_roundtrip_in_editor_form. Qed.
Print Assumptions C03_unit_property_table_roundtrip_in_editor_form.

(* byte identity of ONE trigger entry in editor form, any of the 51 action types: unused fields zero, only the five defined
   flag bits, every reference written with the number the save's lookup gives back for what it denotes *)
Theorem C03_an_action_in_editor_form_is_rewritten_identically :
  forall cx cx' vals key args fl v',
    length vals = length action_record_fields ->
    let v := entry_val action_record_fields vals in
    decode_entry_of cx gen_action_table "TriggerActionId" "_action_id" action_flags_codec action_record_fields v
      = Ok (Some (ERich key args fl)) ->
    encode_entry_of cx' gen_action_table action_flags_codec action_record_fields (ERich key args fl) = Ok v' ->
    vint "_flags" v < 32 ->
    (forall s f, In s spec_action_table -> se_id s = key -> In f action_record_fields -> f <> "_flags" ->
                 expected_src s f = EZero -> vint f v = 0) ->
    (forall te a c f x n', find_entry key gen_action_table = Some te -> In (a, c, f) (te_dec te) ->
       dec_arg cx c (vint f v) = Ok x -> enc_arg cx' c x = Ok n' -> n' = vint f v) ->
    v' = v.
Proof. exact action_entry_identity. Qed.
Print Assumptions C03_an_action_in_editor_form_is_rewritten_identically.

(* ... and any of the 22 condition types *)
Theorem C03_a_condition_in_editor_form_is_rewritten_identically :
  forall cx cx' vals key args fl v',
    length vals = length condition_record_fields ->
    let v := entry_val condition_record_fields vals in
    decode_entry_of cx gen_condition_table "TriggerConditionId" "_condition_id" condition_flags_codec condition_record_fields v
      = Ok (Some (ERich key args fl)) ->
    encode_entry_of cx' gen_condition_table condition_flags_codec condition_record_fields (ERich key args fl) = Ok v' ->
    vint "_flags" v < 32 ->
    (forall s f, In s spec_condition_table -> se_id s = key -> In f condition_record_fields -> f <> "_flags" ->
                 expected_src s f = EZero -> vint f v = 0) ->
    (forall te a c f x n', find_entry key gen_condition_table = Some te -> In (a, c, f) (te_dec te) ->
       dec_arg cx c (vint f v) = Ok x -> enc_arg cx' c x = Ok n' -> n' = vint f v) ->
    v' = v.
Proof. exact condition_entry_identity. Qed.
Print Assumptions C03_a_condition_in_editor_form_is_rewritten_identically.
