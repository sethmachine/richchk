(* C04 — authored rich content reaches the file unchanged.  Statements, each closed in a line or two from proofs/.

   FULL STATEMENT: for every base map and every authored entry with in-range arguments, the saved bytes, read by an
   independent decoder, hold each argument in the spec's field, every new reference resolves to the authored object, and
   loading the result gives back objects equal to the authored ones up to the assigned slot numbers.
   Proved here: the field-level half, for every supported type and ANY lookups (_partial, with the C08 and C09 facts it
   composes with); the reference-resolution half link by link through the save's own rebuild (which number is written for a
   string, a location, a unit-property set, a switch; what the emitted table holds there; what a later load reads there) and
   END TO END for plain arguments, locations, unit-property sets and switches, with two capstone actions.  Not proved: the
   full statement for every entry of every trigger at once; tools/c04.py exercises it on the implementation, whose saved
   bytes the pipeline model reproduces byte for byte. *)
From Coq Require Import String NArith List Bool.
From RC Require Import lib.Result model.Layout model.TrigTable model.RichCodec model.Str model.StrEditor model.Alloc
  proofs.C04_proofs proofs.C04_readback proofs.C04_locations proofs.C04_cuwps proofs.C04_reload proofs.C04_reload_locs
  proofs.C04_reload_cuwps proofs.C04_reload_switches proofs.C04_capstone proofs.C04_capstone2 proofs.C04_switches
  proofs.C04_wavs model.ChkIo gen.GenConsts proofs.C07_triggers proofs.C07_slots model.RichIo proofs.C08_proofs
  proofs.C09_proofs proofs.Save_strings proofs.Save_refs gen.GenTrig spec.SpecTrig gen.GenFlags.
Import ListNotations.
Local Open Scope N_scope.

Theorem C04_authored_action_reaches_the_spec_fields_partial :
  forall cx key args fl v,
    encode_entry_of cx gen_action_table action_flags_codec action_record_fields (ERich key args fl) = Ok v ->
    exists s, In s spec_action_table /\ se_id s = key /\
      forall f, In f action_record_fields -> f <> "_flags"%string ->
        match expected_src s f with
        | EZero => vint f v = 0
        | EOwnId => vint f v = key
        | EWavDuration => exists d, wav_duration cx args = Ok d /\ vint f v = d
        | EArg c a => exists x n, arg_get rarg a args = Ok x /\ enc_arg cx c x = Ok n /\ vint f v = n
        end.
Proof. exact authored_action_reaches_the_spec_fields. Qed.
Print Assumptions C04_authored_action_reaches_the_spec_fields_partial.

(* every authored text gets an id that resolves to exactly that text in the rebuilt string table *)
Theorem C04_authored_strings_resolve_partial :
  forall w req t bin t' bin',
    wf_table w t bin -> Forall clean req -> add_strings w req t = Ok t' -> str_encode w t' = Ok bin' ->
    forall s, In s req -> resolvable t' bin' s.
Proof.
  intros w req t bin t' bin' Hwf Hc Ha He. destruct (add_strings_correct w req t bin t' bin' Hwf Hc Ha He) as (_ & _ & H & _).
  exact H.
Qed.
Print Assumptions C04_authored_strings_resolve_partial.

(* every new location gets a slot of its own that was empty (unit-property sets: C07_new_slots_were_empty_partial,
   C09_unit_property_slots_sound) *)
Theorem C04_new_objects_get_their_own_free_slot_partial :
  forall existing reqs outs, add_locations existing reqs = Ok outs ->
    NoDup (placed_ids outs) /\ forall i, In i (placed_ids outs) -> ~ In i existing.
Proof.
  intros existing reqs outs H. destruct (add_locations_sound _ _ _ H) as (_ & Hn & Hf & _). split; assumption.
Qed.
Print Assumptions C04_new_objects_get_their_own_free_slot_partial.

(* every reference resolves to the authored object - strings: the number the save writes for a rich string reads back,
   through the emitted table's own lookup, as exactly that string (0 for "no string") *)
Theorem C04_a_written_string_number_reads_back_as_the_authored_text :
  forall L s i, (N.of_nat (length (sl_by_id L)) <= 1000000)%N -> id_by_str L s = Ok i ->
    str_by_id L i = s /\ (i = 0 \/ (1 <= i /\ i <= N.of_nat (length (sl_by_id L))))%N.
Proof. exact id_by_str_resolves. Qed.
Print Assumptions C04_a_written_string_number_reads_back_as_the_authored_text.

(* ... locations: the slot the emitted location table holds for a location reads back with that location's own name *)
Theorem C04_an_emitted_location_slot_carries_the_location_s_name :
  forall L ls v k l slot,
    (N.of_nat (length (sl_by_id L)) <= 1000000)%N -> mrgn_encode L ls = Ok v ->
    (k < N.to_nat MRGN_TRANSCODER_MAX_LOCATIONS)%nat ->
    assocN_last (N.of_nat k + 1)%N (flat_map (fun l => match l_idx l with Some i => [(i, l)] | None => [] end) ls) = Some l ->
    nth_error (vlist "_locations" v) k = Some slot ->
    str_by_id L (vint "_string_id" slot) = l_name l.
Proof. exact mrgn_slot_name_resolves. Qed.
Print Assumptions C04_an_emitted_location_slot_carries_the_location_s_name.

(* "Loading the saved map returns rich objects equal to the authored ones", one trigger entry of ANY of the 51 action types:
   the record written for an authored action is read back, by the registered transcoder of that type, as an action of that
   type with the same flags, each argument being the image of the authored one under decode-after-encode of its codec (R is
   whatever relation the caller can establish for the codecs in play; the one computed field, the play time of a sound, reads
   back as the computed time) *)
Theorem C04_an_authored_action_is_read_back_as_itself :
  forall cx (R : rarg -> rarg -> Prop) key args fl v,
    encode_entry_of cx gen_action_table action_flags_codec action_record_fields (ERich key args fl) = Ok v ->
    length fl = 5%nat ->
    (forall te a c f x n, find_entry key gen_action_table = Some te -> In (a, c, f) (te_dec te) -> arg_get rarg a args = Ok x ->
       enc_arg cx c x = Ok n -> exists x', dec_arg cx c n = Ok x' /\ R x x') ->
    exists te args',
      find_entry key gen_action_table = Some te /\
      decode_entry_of cx gen_action_table "TriggerActionId" "_action_id" action_flags_codec action_record_fields v
        = Ok (Some (ERich key args' fl)) /\
      forall a c f, In (a, c, f) (te_dec te) ->
        exists x', arg_get rarg a args' = Ok x' /\
          ((exists x, arg_get rarg a args = Ok x /\ R x x') \/ (exists d, wav_duration cx args = Ok d /\ x' = AInt d)).
Proof. exact authored_action_reads_back. Qed.
Print Assumptions C04_an_authored_action_is_read_back_as_itself.

(* ... and of any of the 22 condition types *)
Theorem C04_an_authored_condition_is_read_back_as_itself :
  forall cx (R : rarg -> rarg -> Prop) key args fl v,
    encode_entry_of cx gen_condition_table condition_flags_codec condition_record_fields (ERich key args fl) = Ok v ->
    length fl = 5%nat ->
    (forall te a c f x n, find_entry key gen_condition_table = Some te -> In (a, c, f) (te_dec te) -> arg_get rarg a args = Ok x ->
       enc_arg cx c x = Ok n -> exists x', dec_arg cx c n = Ok x' /\ R x x') ->
    exists te args',
      find_entry key gen_condition_table = Some te /\
      decode_entry_of cx gen_condition_table "TriggerConditionId" "_condition_id" condition_flags_codec condition_record_fields v
        = Ok (Some (ERich key args' fl)) /\
      forall a c f, In (a, c, f) (te_dec te) ->
        exists x', arg_get rarg a args' = Ok x' /\
          ((exists x, arg_get rarg a args = Ok x /\ R x x') \/ (exists d, wav_duration cx args = Ok d /\ x' = AInt d)).
Proof. exact authored_condition_reads_back. Qed.
Print Assumptions C04_an_authored_condition_is_read_back_as_itself.

(* ... with R equality whenever the arguments are plain numbers, enumeration members, strings and AI scripts: such an
   action is read back with exactly the authored arguments *)
Theorem C04_plain_actions_read_back_identically :
  forall cx key args fl v,
    encode_entry_of cx gen_action_table action_flags_codec action_record_fields (ERich key args fl) = Ok v ->
    length fl = 5%nat -> (N.of_nat (length (sl_by_id (cx_str cx))) <= 1000000)%N ->
    (forall te a c f x, find_entry key gen_action_table = Some te -> In (a, c, f) (te_dec te) -> arg_get rarg a args = Ok x ->
       plain_codec c = true /\ arg_member c x) ->
    exists te args',
      find_entry key gen_action_table = Some te /\
      decode_entry_of cx gen_action_table "TriggerActionId" "_action_id" action_flags_codec action_record_fields v
        = Ok (Some (ERich key args' fl)) /\
      forall a c f, In (a, c, f) (te_dec te) ->
        arg_get rarg a args' = arg_get rarg a args \/
        (exists d, wav_duration cx args = Ok d /\ arg_get rarg a args' = Ok (AInt d)).
Proof. exact authored_plain_action_reads_back_identically. Qed.
Print Assumptions C04_plain_actions_read_back_identically.

(* "every new reference resolving to the authored object", locations, through the save's own rebuild: the number the save hands
   to the trigger encoders for a location l names a slot of the REBUILT table holding a location that Python considers equal to
   l and that carries exactly that number - the table's own locations and authored ones placed by the allocator alike *)
Theorem C04_the_number_written_for_a_location_names_that_location :
  forall r ls mr l i,
    filter (named "MRGN") r = [RMrgn ls] -> rebuild_mrgn r = Ok mr ->
    NoDup (map fst (by_idx ls)) ->
    find_loc_id l (snd mr) None = Some i ->
    exists k0, rloc_eqb l k0 = true /\ assocN_last i (by_idx (fst mr)) = Some (set_idx k0 i).
Proof. exact saved_location_number_names_the_location. Qed.
Print Assumptions C04_the_number_written_for_a_location_names_that_location.

(* ... whose premise every decoded location table meets *)
Theorem C04_a_loaded_location_table_has_one_location_per_number :
  forall L v ls, mrgn_decode L v = Ok ls -> NoDup (map fst (by_idx ls)).
Proof. exact loaded_location_table_has_one_location_per_number. Qed.
Print Assumptions C04_a_loaded_location_table_has_one_location_per_number.

(* ... unit-property sets: the number written into a Create-Unit-with-Properties action for a set c names a slot of the REBUILT
   table holding properties equal to c's (carried index still sitting there, an equal slot reused, or a newly placed one) *)
Theorem C04_the_number_written_for_a_unit_property_set_names_equal_properties :
  forall r cs up cx c i,
    filter (named "UPRP") r = [RUprp cs] -> rebuild_uprp r = Ok up -> cx_cuwps cx = up ->
    NoDup (map fst (cby_idx cs)) ->
    id_by_cuwp cx c = Ok i ->
    exists k, assocN_last i (cby_idx up) = Some k /\ rcuwp_eqb c k = true.
Proof. exact saved_cuwp_number_names_the_set. Qed.
Print Assumptions C04_the_number_written_for_a_unit_property_set_names_equal_properties.

Theorem C04_a_loaded_unit_property_table_has_one_set_per_number :
  forall v cs, uprp_decode v = Ok cs -> NoDup (map fst (cby_idx cs)).
Proof. exact loaded_uprp_table_has_one_set_per_number. Qed.
Print Assumptions C04_a_loaded_unit_property_table_has_one_set_per_number.

(* the load of the SAVED map builds its string lookup from the very table the save encoded against *)
Theorem C04_the_reload_reads_strings_through_the_saved_table :
  forall wd r d' cx', save wd r = Ok d' -> decode_context d' = Ok cx' ->
    exists new_str L, rebuild_str r = Ok new_str /\ build_str_lookup 2 new_str = Ok L /\ cx_str cx' = L.
Proof. exact load_after_save_uses_the_saved_string_table. Qed.
Print Assumptions C04_the_reload_reads_strings_through_the_saved_table.

(* ... hence, end to end for plain arguments (numbers, enumeration members, strings, AI scripts): the action is read back by
   that load with exactly the authored arguments *)
Theorem C04_a_plain_action_survives_save_and_reload :
  forall wd r d' cx' cx new_str L key args fl v,
    save wd r = Ok d' -> decode_context d' = Ok cx' ->
    rebuild_str r = Ok new_str -> build_str_lookup 2 new_str = Ok L -> cx_str cx = L ->
    (N.of_nat (length (sl_by_id L)) <= 1000000)%N ->
    encode_entry_of cx gen_action_table action_flags_codec action_record_fields (ERich key args fl) = Ok v ->
    length fl = 5%nat ->
    (forall te a c f, find_entry key gen_action_table = Some te -> In (a, c, f) (te_dec te) -> plain_codec c = true) ->
    (forall te a c f x, find_entry key gen_action_table = Some te -> In (a, c, f) (te_dec te) -> arg_get rarg a args = Ok x ->
       arg_member c x) ->
    exists te args',
      find_entry key gen_action_table = Some te /\
      decode_entry_of cx' gen_action_table "TriggerActionId" "_action_id" action_flags_codec action_record_fields v
        = Ok (Some (ERich key args' fl)) /\
      forall a c f, In (a, c, f) (te_dec te) ->
        arg_get rarg a args' = arg_get rarg a args \/
        (exists d, wav_duration cx args = Ok d /\ arg_get rarg a args' = Ok (AInt d)).
Proof. exact plain_action_survives_save_and_reload. Qed.
Print Assumptions C04_a_plain_action_survives_save_and_reload.

(* ... switches: the number written for a NAMED switch names a slot of the rebuilt switch table carrying that number and the
   switch's name - provided no switch with another name claims the same number (the recorded finding two-switches-one-index:
   the premise states what it excludes) *)
Theorem C04_the_number_written_for_a_named_switch_names_that_switch :
  forall r sw s k,
    RichIo.rebuild_swnm r = Ok sw -> find_switch_id s (snd sw) None = Some k -> (N.to_nat k < N.to_nat MAX_SWITCHES)%nat ->
    rstr_empty (s_name s) = false ->
    (forall u, In (u, k) (snd sw) -> rstr_empty (s_name u) = false -> sw_norm u = sw_norm s) ->
    exists slot, nth_error (fst sw) (N.to_nat k) = Some slot /\ sw_norm slot = sw_norm s /\ s_idx slot = Some k.
Proof. exact saved_switch_number_names_the_switch. Qed.
Print Assumptions C04_the_number_written_for_a_named_switch_names_that_switch.

(* ... locations again: the slot written for a location, read back by a later load, is the location with the authored
   rectangle, name and elevation flags, carrying the slot's number (content equal to an empty slot: the recorded C11 finding) *)
Theorem C04_an_emitted_location_slot_is_read_back_as_the_location :
  forall L l slot i0,
    loc_encode L l = Ok slot -> length (l_elev l) = 6%nat -> (N.of_nat (length (sl_by_id L)) <= 1000000)%N ->
    loc_is_unused slot = false ->
    mrgn_decode_locs L [slot] i0 =
      Ok [{| l_x1 := l_x1 l; l_y1 := l_y1 l; l_x2 := l_x2 l; l_y2 := l_y2 l; l_name := l_name l; l_idx := Some (i0 + 1)%N;
             l_elev := l_elev l; l_oid := 0%N |}].
Proof. exact an_emitted_location_slot_reads_back. Qed.
Print Assumptions C04_an_emitted_location_slot_is_read_back_as_the_location.

(* ... likewise the slot written for a unit-property set *)
Theorem C04_an_emitted_unit_property_slot_is_read_back_as_the_set :
  forall c slot i0,
    cuwp_encode c = Ok slot ->
    length (c_vs c) = 6%nat -> length (c_vu c) = 7%nat -> length (c_flags c) = 5%nat ->
    cuwp_is_unused slot = false ->
    uprp_decode_slots [slot] i0 =
      Ok [{| c_hp := c_hp c; c_sh := c_sh c; c_en := c_en c; c_res := c_res c; c_hang := c_hang c; c_flags := c_flags c;
             c_vs := c_vs c; c_vu := c_vu c; c_unk := c_unk c; c_pad := c_pad c; c_idx := Some (i0 + 1)%N |}].
Proof. exact an_emitted_cuwp_slot_reads_back. Qed.
Print Assumptions C04_an_emitted_unit_property_slot_is_read_back_as_the_set.

(* ... and the switch table: entry k of the lookup a later load builds is switch k with the name that was written for it *)
Theorem C04_the_emitted_switch_table_is_read_back_name_by_name :
  forall L ss v j s,
    (N.of_nat (length (sl_by_id L)) <= 1000000)%N -> swnm_encode L ss = Ok v -> nth_error ss j = Some s ->
    nth_error (swnm_lookup L v) j = Some (N.of_nat j, {| s_name := s_name s; s_idx := Some (N.of_nat j); s_oid := 0%N |}).
Proof. exact an_emitted_switch_table_reads_back. Qed.
Print Assumptions C04_the_emitted_switch_table_is_read_back_name_by_name.

(* ... and the sound table: a sound the save wrote into slot k is found by a later load at slot k under the same path *)
Theorem C04_the_emitted_sound_table_is_read_back :
  forall L ws v k p,
    (N.of_nat (length (sl_by_id L)) <= 1000000)%N -> wav_encode L ws = Ok v ->
    (k < N.to_nat MAX_WAV_FILES)%nat ->
    assocN_last (N.of_nat k) (map (fun w : rstr * N => (snd w, fst w)) ws) = Some p ->
    p <> RNull ->
    In (p, N.of_nat k) (wav_decode L v).
Proof. exact an_emitted_sound_table_reads_back. Qed.
Print Assumptions C04_the_emitted_sound_table_is_read_back.

(* ... and the WHOLE emitted location table, decoded again by a later load: at every number whose slot is not all zero that load
   finds the location written there - rectangle, name, elevation flags - carrying that number *)
Theorem C04_the_saved_location_table_is_read_back :
  forall L ls v,
    (N.of_nat (length (sl_by_id L)) <= 1000000)%N -> mrgn_encode L ls = Ok v ->
    (forall l, In l ls -> length (l_elev l) = 6%nat) ->
    exists ls', mrgn_decode L v = Ok ls' /\
      forall k l slot, assocN_last (N.of_nat k + 1)%N (by_idx ls) = Some l ->
        nth_error (vlist "_locations" v) k = Some slot -> loc_is_unused slot = false ->
        assocN_last (N.of_nat k + 1)%N (by_idx ls') =
          Some {| l_x1 := l_x1 l; l_y1 := l_y1 l; l_x2 := l_x2 l; l_y2 := l_y2 l; l_name := l_name l;
                  l_idx := Some (N.of_nat k + 1)%N; l_elev := l_elev l; l_oid := 0%N |}.
Proof. exact saved_location_table_reads_back. Qed.
Print Assumptions C04_the_saved_location_table_is_read_back.

(* ... likewise the WHOLE emitted unit-property table *)
Theorem C04_the_saved_unit_property_table_is_read_back :
  forall cs v,
    uprp_encode cs = Ok v ->
    (forall c, In c cs -> length (c_vs c) = 6%nat /\ length (c_vu c) = 7%nat /\ length (c_flags c) = 5%nat) ->
    exists cs', uprp_decode v = Ok cs' /\
      forall k c slot, assocN_last (N.of_nat k + 1)%N (cby_idx cs) = Some c ->
        nth_error (vlist "_cuwp_slots" v) k = Some slot -> cuwp_is_unused slot = false ->
        assocN_last (N.of_nat k + 1)%N (cby_idx cs') =
          Some {| c_hp := c_hp c; c_sh := c_sh c; c_en := c_en c; c_res := c_res c; c_hang := c_hang c; c_flags := c_flags c;
                  c_vs := c_vs c; c_vu := c_vu c; c_unk := c_unk c; c_pad := c_pad c; c_idx := Some (N.of_nat k + 1)%N |}.
Proof. exact saved_cuwp_table_reads_back. Qed.
Print Assumptions C04_the_saved_unit_property_table_is_read_back.

(* END TO END for a location argument: the number a save writes for a location l is resolved, by the context a later load of the
   saved map builds, to a location that Python considers equal to l - rectangle, name, elevation flags - carrying that number *)
Theorem C04_a_location_number_resolves_to_the_authored_location_after_reload :
  forall wd r d' cx' ls mr new_str SL l i v slot,
    save wd r = Ok d' -> decode_context d' = Ok cx' ->
    filter (named "MRGN") r = [RMrgn ls] -> rebuild_mrgn r = Ok mr ->
    rebuild_str r = Ok new_str -> build_str_lookup 2 new_str = Ok SL ->
    (N.of_nat (length (sl_by_id SL)) <= 1000000)%N ->
    NoDup (map fst (by_idx ls)) -> (forall x, In x (fst mr) -> length (l_elev x) = 6%nat) ->
    find_loc_id l (snd mr) None = Some i -> (1 <= i)%N ->
    mrgn_encode SL (fst mr) = Ok v -> nth_error (vlist "_locations" v) (N.to_nat (i - 1)) = Some slot -> loc_is_unused slot = false ->
    exists k0,
      rloc_eqb l k0 = true /\
      loc_by_id cx' i = Some {| l_x1 := l_x1 k0; l_y1 := l_y1 k0; l_x2 := l_x2 k0; l_y2 := l_y2 k0; l_name := l_name k0;
                               l_idx := Some i; l_elev := l_elev k0; l_oid := 0%N |}.
Proof. exact location_number_resolves_after_reload. Qed.
Print Assumptions C04_a_location_number_resolves_to_the_authored_location_after_reload.

(* END TO END for a unit-property argument: the number a save writes for a set c is resolved, by the context a later load of the
   saved map builds, to a set with properties equal to c's, carrying that number *)
Theorem C04_a_unit_property_number_resolves_to_equal_properties_after_reload :
  forall wd r d' cx' cs up cx c i v slot,
    save wd r = Ok d' -> decode_context d' = Ok cx' ->
    filter (named "UPRP") r = [RUprp cs] -> rebuild_uprp r = Ok up -> cx_cuwps cx = up ->
    NoDup (map fst (cby_idx cs)) ->
    (forall s, In s r -> named "UPRP" s = true -> exists cs0, s = RUprp cs0) ->
    (forall x, In x up -> length (c_vs x) = 6%nat /\ length (c_vu x) = 7%nat /\ length (c_flags x) = 5%nat) ->
    id_by_cuwp cx c = Ok i -> (1 <= i)%N ->
    uprp_encode up = Ok v -> nth_error (vlist "_cuwp_slots" v) (N.to_nat (i - 1)) = Some slot -> cuwp_is_unused slot = false ->
    exists k,
      rcuwp_eqb c k = true /\
      cuwp_by_id cx' i = Some {| c_hp := c_hp k; c_sh := c_sh k; c_en := c_en k; c_res := c_res k; c_hang := c_hang k;
                                 c_flags := c_flags k; c_vs := c_vs k; c_vu := c_vu k; c_unk := c_unk k; c_pad := c_pad k;
                                 c_idx := Some i |}.
Proof. exact cuwp_number_resolves_after_reload. Qed.
Print Assumptions C04_a_unit_property_number_resolves_to_equal_properties_after_reload.

(* the general form of the read-back theorem: an authored action written under the SAVE's context cx is read, under ANY later
   context cx' (in particular the one a load of the saved map builds), as the same type with the same flags, every argument
   related by R to the authored one whenever the caller shows that for the codecs in play (as the END-TO-END theorems do) *)
Theorem C04_an_authored_action_is_read_back_by_a_later_context :
  forall cx cx' (R : rarg -> rarg -> Prop) key args fl v,
    encode_entry_of cx gen_action_table action_flags_codec action_record_fields (ERich key args fl) = Ok v ->
    length fl = 5%nat ->
    (forall te a c f x n, find_entry key gen_action_table = Some te -> In (a, c, f) (te_dec te) -> arg_get rarg a args = Ok x ->
       enc_arg cx c x = Ok n -> exists x', dec_arg cx' c n = Ok x' /\ R x x') ->
    exists te args',
      find_entry key gen_action_table = Some te /\
      decode_entry_of cx' gen_action_table "TriggerActionId" "_action_id" action_flags_codec action_record_fields v
        = Ok (Some (ERich key args' fl)) /\
      forall a c f, In (a, c, f) (te_dec te) ->
        exists x', arg_get rarg a args' = Ok x' /\
          ((exists x, arg_get rarg a args = Ok x /\ R x x') \/ (exists d, wav_duration cx args = Ok d /\ x' = AInt d)).
Proof. exact authored_action_reads_back_later. Qed.
Print Assumptions C04_an_authored_action_is_read_back_by_a_later_context.

Theorem C04_an_authored_condition_is_read_back_by_a_later_context :
  forall cx cx' (R : rarg -> rarg -> Prop) key args fl v,
    encode_entry_of cx gen_condition_table condition_flags_codec condition_record_fields (ERich key args fl) = Ok v ->
    length fl = 5%nat ->
    (forall te a c f x n, find_entry key gen_condition_table = Some te -> In (a, c, f) (te_dec te) -> arg_get rarg a args = Ok x ->
       enc_arg cx c x = Ok n -> exists x', dec_arg cx' c n = Ok x' /\ R x x') ->
    exists te args',
      find_entry key gen_condition_table = Some te /\
      decode_entry_of cx' gen_condition_table "TriggerConditionId" "_condition_id" condition_flags_codec condition_record_fields v
        = Ok (Some (ERich key args' fl)) /\
      forall a c f, In (a, c, f) (te_dec te) ->
        exists x', arg_get rarg a args' = Ok x' /\
          ((exists x, arg_get rarg a args = Ok x /\ R x x') \/ (exists d, wav_duration cx args = Ok d /\ x' = AInt d)).
Proof. exact authored_condition_reads_back_later. Qed.
Print Assumptions C04_an_authored_condition_is_read_back_by_a_later_context.

(* END TO END for a switch argument: the number a save writes for a named switch is resolved, by the switch lookup a later load of
   the saved map builds, to the switch of that number carrying the authored name (outside the two-switches-one-index finding) *)
Theorem C04_a_switch_number_resolves_to_the_named_switch_after_reload :
  forall wd r d' cx' sw new_str SL s k,
    save wd r = Ok d' -> decode_context d' = Ok cx' ->
    RichIo.rebuild_swnm r = Ok sw -> rebuild_str r = Ok new_str -> build_str_lookup 2 new_str = Ok SL ->
    (N.of_nat (length (sl_by_id SL)) <= 1000000)%N ->
    (forall x, In x r -> named "SWNM" x = true -> exists ss, x = RSwnm ss) -> (length (filter (named "SWNM") r) <= 1)%nat ->
    find_switch_id s (snd sw) None = Some k -> (N.to_nat k < N.to_nat MAX_SWITCHES)%nat ->
    rstr_empty (s_name s) = false ->
    (forall u, In (u, k) (snd sw) -> rstr_empty (s_name u) = false -> sw_norm u = sw_norm s) ->
    exists entry, assocN_last k (cx_switch_by_id cx') = Some entry /\ sw_norm entry = sw_norm s /\ s_idx entry = Some k.
Proof. exact switch_number_resolves_after_reload. Qed.
Print Assumptions C04_a_switch_number_resolves_to_the_named_switch_after_reload.

(* A CAPSTONE INSTANCE, all links composed: one authored Center View action (type 10, one location argument) through `save` and
   the load of the saved map: read back as a Center View action with the same flags, whose location is the authored one
   (rectangle, name, elevation flags), carrying the number the save gave it *)
Theorem C04_a_center_view_action_survives_save_and_reload :
  forall wd r d' cx' ls mr sw up new_str SL l fl v i mv slot,
    save wd r = Ok d' -> decode_context d' = Ok cx' ->
    filter (named "MRGN") r = [RMrgn ls] -> rebuild_mrgn r = Ok mr ->
    rebuild_str r = Ok new_str -> build_str_lookup 2 new_str = Ok SL -> (N.of_nat (length (sl_by_id SL)) <= 1000000)%N ->
    NoDup (map fst (by_idx ls)) -> (forall x, In x (fst mr) -> length (l_elev x) = 6%nat) ->
    let cx := save_context wd SL mr sw up in
    encode_entry_of cx gen_action_table action_flags_codec action_record_fields (ERich 10 [("_location"%string, ALoc l)] fl) = Ok v ->
    length fl = 5%nat ->
    find_loc_id l (snd mr) None = Some i -> (1 <= i)%N ->
    mrgn_encode SL (fst mr) = Ok mv -> nth_error (vlist "_locations" mv) (N.to_nat (i - 1)) = Some slot -> loc_is_unused slot = false ->
    exists k0 args',
      rloc_eqb l k0 = true /\
      decode_entry_of cx' gen_action_table "TriggerActionId" "_action_id" action_flags_codec action_record_fields v
        = Ok (Some (ERich 10 args' fl)) /\
      arg_get rarg "_location" args' =
        Ok (ALoc {| l_x1 := l_x1 k0; l_y1 := l_y1 k0; l_x2 := l_x2 k0; l_y2 := l_y2 k0; l_name := l_name k0;
                    l_idx := Some i; l_elev := l_elev k0; l_oid := 0%N |}).
Proof. exact center_view_survives_save_and_reload. Qed.
Print Assumptions C04_a_center_view_action_survives_save_and_reload.

(* A SECOND CAPSTONE, arguments of several kinds at once: one authored Create-Units-with-Properties action (type 11: player and unit
   type - enumeration members -, amount - a plain number -, a location and a unit-property set) through `save` and the load of the
   saved map: read back with the same flags, player, amount and unit type, the authored location and a unit-property set with
   the authored properties, under the numbers the save gave them *)
Theorem C04_a_create_units_with_properties_action_survives_save_and_reload :
  forall wd r d' cx' ls mr sw cs up new_str SL g n u l c fl v i mv slot j uv cslot,
    save wd r = Ok d' -> decode_context d' = Ok cx' ->
    rebuild_str r = Ok new_str -> build_str_lookup 2 new_str = Ok SL -> (N.of_nat (length (sl_by_id SL)) <= 1000000)%N ->
    filter (named "MRGN") r = [RMrgn ls] -> rebuild_mrgn r = Ok mr ->
    NoDup (map fst (by_idx ls)) -> (forall x, In x (fst mr) -> length (l_elev x) = 6%nat) ->
    filter (named "UPRP") r = [RUprp cs] -> rebuild_uprp r = Ok up -> NoDup (map fst (cby_idx cs)) ->
    (forall s, In s r -> named "UPRP" s = true -> exists cs0, s = RUprp cs0) ->
    (forall x, In x up -> length (c_vs x) = 6%nat /\ length (c_vu x) = 7%nat /\ length (c_flags x) = 5%nat) ->
    let cx := save_context wd SL mr sw up in
    enum_has "PlayerId" g = true -> enum_has "UnitId" u = true ->
    encode_entry_of cx gen_action_table action_flags_codec action_record_fields
      (ERich 11 [("_group"%string, AEnum g); ("_amount"%string, AInt n); ("_unit"%string, AEnum u); ("_location"%string, ALoc l);
                 ("_properties"%string, ACuwp c)] fl) = Ok v ->
    length fl = 5%nat ->
    find_loc_id l (snd mr) None = Some i -> (1 <= i)%N ->
    mrgn_encode SL (fst mr) = Ok mv -> nth_error (vlist "_locations" mv) (N.to_nat (i - 1)) = Some slot -> loc_is_unused slot = false ->
    id_by_cuwp cx c = Ok j -> (1 <= j)%N ->
    uprp_encode up = Ok uv -> nth_error (vlist "_cuwp_slots" uv) (N.to_nat (j - 1)) = Some cslot -> cuwp_is_unused cslot = false ->
    exists k0 k args',
      rloc_eqb l k0 = true /\ rcuwp_eqb c k = true /\
      decode_entry_of cx' gen_action_table "TriggerActionId" "_action_id" action_flags_codec action_record_fields v
        = Ok (Some (ERich 11 args' fl)) /\
      arg_get rarg "_group" args' = Ok (AEnum g) /\ arg_get rarg "_amount" args' = Ok (AInt n) /\
      arg_get rarg "_unit" args' = Ok (AEnum u) /\
      arg_get rarg "_location" args' = Ok (ALoc (fields_of_loc k0 i)) /\
      arg_get rarg "_properties" args' = Ok (ACuwp (fields_of_cuwp k j)).
Proof. exact create_units_survives_save_and_reload. Qed.
Print Assumptions C04_a_create_units_with_properties_action_survives_save_and_reload.
