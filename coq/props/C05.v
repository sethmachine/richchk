(* C05 — every trigger action and condition uses the CHK-spec fields.  Statements, each closed in a line or two from proofs/. *)
From Coq Require Import String NArith List Bool.
From RC Require Import lib.Result model.TrigTable gen.GenTrig spec.SpecTrig proofs.C05_proofs proofs.C04_readback.
Import ListNotations.
Local Open Scope N_scope.

(* the tables read from the 51 + 22 transcoders' source are the specification tables: same type numbers,
   same model classes, same (argument, codec, record field) triples, every other field zero *)
Theorem C05_generated_tables_are_the_spec_tables :
  tables_match action_record_fields gen_action_table spec_action_table = true /\
  tables_match condition_record_fields gen_condition_table spec_condition_table = true.
Proof. exact (conj action_table_matches condition_table_matches). Qed.
Print Assumptions C05_generated_tables_are_the_spec_tables.

Theorem C05_registered_types_are_exactly_the_spec_types :
  map te_key gen_action_table = map se_id spec_action_table /\
  map te_key gen_condition_table = map se_id spec_condition_table /\
  length gen_action_table = 51%nat /\ length gen_condition_table = 22%nat.
Proof. exact registered_types_are_the_spec_types. Qed.
Print Assumptions C05_registered_types_are_exactly_the_spec_types.

(* for EVERY interpretation of the codecs (any lookup context, any argument values): each argument is written
   to and read from exactly the field the specification assigns to it, the type byte is the type's own number,
   unused fields are zero, no two arguments share a field *)
Theorem C05_every_action_uses_the_spec_fields :
  forall (rval : Type) dec_codec enc_codec wav_duration g, In g gen_action_table ->
    exists s, In s spec_action_table /\
      entry_correct rval dec_codec enc_codec wav_duration action_record_fields "_action_id" g s.
Proof.
  intros rval dec_codec enc_codec wav_duration.
  exact (every_generated_entry_is_correct _ _ _ _ _ _ _ _ action_table_matches (spec_ok_own_id _ _ _ action_spec_ok)).
Qed.
Print Assumptions C05_every_action_uses_the_spec_fields.

Theorem C05_every_condition_uses_the_spec_fields :
  forall (rval : Type) dec_codec enc_codec wav_duration g, In g gen_condition_table ->
    exists s, In s spec_condition_table /\
      entry_correct rval dec_codec enc_codec wav_duration condition_record_fields "_condition_id" g s.
Proof.
  intros rval dec_codec enc_codec wav_duration.
  exact (every_generated_entry_is_correct _ _ _ _ _ _ _ _ condition_table_matches (spec_ok_own_id _ _ _ condition_spec_ok)).
Qed.
Print Assumptions C05_every_condition_uses_the_spec_fields.
