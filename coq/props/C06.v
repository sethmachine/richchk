(* C06 — decoded sections expose the values at the spec's offsets.  Statements only. *)
From Coq Require Import String NArith List Bool.
From RC Require Import lib.Result lib.Bytes model.Layout model.ChkIo
  proofs.Layout_offsets proofs.C06_proofs gen.GenLayouts spec.SpecLayouts
  model.Str proofs.C06_str.
Import ListNotations.

(* the layouts read from the transcoders' source ARE the layouts transcribed from the format description:
   same fields, same order, same widths and counts, for decode and for encode *)
Theorem C06_generated_layouts_are_the_spec_layouts :
  forall name dec enc, In (name, (dec, enc)) gen_layouts ->
    exists spec, In (name, spec) spec_layouts /\ dec = spec /\ erase enc = spec /\ wf_l spec = true.
Proof. exact gen_layout_is_spec. Qed.
Print Assumptions C06_generated_layouts_are_the_spec_layouts.

(* every scalar reached by a path in a spec layout is the little-endian integer found at the
   layout's offset and width — for every payload *)
Theorem C06_decoded_field_is_the_integer_at_the_spec_offset :
  forall name spec, In (name, spec) spec_layouts ->
  forall fuel bs v rest p o w x,
    decode_l fuel spec bs = Ok (v, rest) -> locate spec p = Some (o, Prim w) -> get spec v p = Some x ->
    x = VInt (le_decode (slice bs o w)).
Proof. exact spec_field_at_offset. Qed.
Print Assumptions C06_decoded_field_is_the_integer_at_the_spec_offset.

Theorem C06_encode_writes_the_field_at_the_spec_offset :
  forall name spec, In (name, spec) spec_layouts ->
  forall fuel bs v rest p o w x pre,
    bytes_ok bs -> decode_l fuel spec bs = Ok (v, rest) -> encode_l spec v = Ok pre ->
    locate spec p = Some (o, Prim w) -> get spec v p = Some (VInt x) -> o + w <= length pre ->
    le_decode (slice pre o w) = x.
Proof. exact spec_encode_at_offset. Qed.
Print Assumptions C06_encode_writes_the_field_at_the_spec_offset.

(* generic in the layout: the statement about decoding above is its instance *)
Theorem C06_field_at_offset_any_layout :
  forall l fuel bs v rest p o w x, wf_l l = true ->
    decode_l fuel l bs = Ok (v, rest) -> locate l p = Some (o, Prim w) -> get l v p = Some x ->
    x = VInt (le_decode (slice bs o w)).
Proof. exact field_at_offset. Qed.
Print Assumptions C06_field_at_offset_any_layout.

(* the string tables (STR: w = 2, STRx: w = 4): the count is the integer at offset 0, offset k is the integer at
   w + w*k, and the strings are the NUL-terminated runs of the data that starts right after the last offset *)
Theorem C06_string_table_fields_at_the_spec_offsets :
  forall w bs m, str_decode w bs = Ok m ->
    ss_num m = le_decode (slice bs 0 w) /\
    N.of_nat (length (ss_offsets m)) = ss_num m /\
    (forall k, (k < length (ss_offsets m))%nat ->
       nth_error (ss_offsets m) k = Some (le_decode (slice bs (w + w * k) w))) /\
    split_nul [] (skipn (w + w * length (ss_offsets m)) bs) = Ok (ss_strings m).
Proof. exact str_fields_at_spec_offsets. Qed.
Print Assumptions C06_string_table_fields_at_the_spec_offsets.
