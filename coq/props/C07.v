(* C07 — edits never disturb what already exists in the map.  Statements, each closed in a line from proofs/.

   FULL STATEMENT: for every edit history ops and base map r0, whatever save r0 emits that the edits give no reason to change
   (sections, string ids, slots, triggers) stands unchanged in what save emits for fold apply_op ops r0; it is stated nowhere
   for the whole map at once.
   Proved here (_partial): the one-step facts it is an induction over — triggers are appended, every string id keeps its
   text, slots handed to new objects were empty, sections without a rich model keep place and bytes — and a refutation
   on the model of the recorded finding (split TRIG sections).
   Proved in full for parts of the map: every edit history keeps the sections it does not address and the sound table's
   bytes; location slots and the numbers of slotted objects are kept by the rebuilders; every pre-existing trigger is written
   as the very record the unedited save writes (with a concrete map and edit that meet the premises). *)
From Coq Require Import String NArith List Bool.
From RC Require Import lib.Result lib.Bytes model.Layout model.Str model.StrEditor model.Alloc model.ChkIo model.RichCodec
  model.RichIo proofs.C07_proofs proofs.C08_proofs proofs.C10_proofs proofs.Save_strings proofs.Save_sizes proofs.C07_untouched proofs.C07_ops proofs.C07_slots proofs.C07_triggers proofs.C07_example.
Import ListNotations.
Local Open Scope N_scope.

Theorem C07_existing_triggers_keep_content_and_position_partial :
  forall new r r' i ts,
    add_triggers new r = Ok r' -> nth_error r i = Some (RTrig ts) ->
    (forall j ts', nth_error r j = Some (RTrig ts') -> j = i) ->
    nth_error r' i = Some (RTrig (ts ++ new)) /\
    forall k t, nth_error ts k = Some t -> nth_error (ts ++ new) k = Some t.
Proof. exact add_triggers_keeps_existing_triggers. Qed.
Print Assumptions C07_existing_triggers_keep_content_and_position_partial.

Theorem C07_every_string_id_keeps_its_text_partial :
  forall r m m' bin bin',
    filter (named "STR ") r = [RDecodedStr "STR " 2 m] ->
    wf_table 2 m bin -> Forall clean (flat_map section_strings r) ->
    rebuild_str r = Ok m' -> str_encode 2 m' = Ok bin' ->
    forall i o s, nth_error (ss_offsets m) i = Some o -> resolve bin o = Ok s ->
      exists o', nth_error (ss_offsets m') i = Some o' /\ resolve bin' o' = Ok s.
Proof. exact rebuild_str_keeps_every_string_id. Qed.
Print Assumptions C07_every_string_id_keeps_its_text_partial.

Theorem C07_new_slots_were_empty_partial :
  (forall existing reqs outs, add_locations existing reqs = Ok outs -> forall i, In i (placed_ids outs) -> ~ In i existing) /\
  (forall existing reqs outs, add_cuwp_slots existing reqs = Ok outs -> forall i, In i (placed_ids outs) -> ~ In i existing).
Proof. exact (conj new_location_slots_were_empty new_unit_property_slots_were_empty). Qed.
Print Assumptions C07_new_slots_were_empty_partial.

Theorem C07_untouched_sections_keep_place_and_bytes_partial :
  forall d r r' wd d' i s,
    load d = Ok r -> nth_error d i = Some s -> unmodelled s = true ->
    nth_error r' i = nth_error r i -> save wd r' = Ok d' -> nth_error d' i = Some s.
Proof. exact unmodelled_section_survives. Qed.
Print Assumptions C07_untouched_sections_keep_place_and_bytes_partial.

(* recorded finding, on the model: replacing "the" trigger section replaces every trigger section *)
Theorem C07_split_trig_sections_refuted :
  let t := {| t_conds := []; t_acts := []; t_players := [] |} in
  let t2 := {| t_conds := []; t_acts := []; t_players := [1] |} in
  add_triggers [t] [RTrig [t]; RTrig [t2]] = Ok [RTrig [t; t]; RTrig [t; t]].
Proof. exact split_trig_refuted. Qed.
Print Assumptions C07_split_trig_sections_refuted.

(* SECTIONS THE EDITS GIVE NO REASON TO CHANGE.  The base map r0 and ANY edited map r' that still holds the same decoded
   STR section and the same sound table / unit settings at position i are saved - each with its own new strings, locations,
   switches and unit-property sets, with or without sound metadata.  Position i of the two outputs is the same section,
   byte for byte (whatever else differs).  Reason (Save_strings): both string tables are growths of the base table, and a
   growth never renumbers a text the base table knew. *)
Theorem C07_untouched_sound_table_and_unit_settings_are_identical :
  forall r0 r' wd0 wd' d0 d' m bin T i s,
    filter (named "STR ") r0 = [RDecodedStr "STR " 2 m] ->
    filter (named "STR ") r' = [RDecodedStr "STR " 2 m] ->
    wf_table 2 m bin -> build_lookup 2 m = Ok T ->
    Forall clean (flat_map section_strings r0) -> Forall clean (flat_map section_strings r') ->
    nth_error r0 i = Some s -> nth_error r' i = Some s -> names_known T s ->
    save wd0 r0 = Ok d0 -> save wd' r' = Ok d' ->
    nth_error d' i = nth_error d0 i.
Proof. exact untouched_string_section_is_identical. Qed.
Print Assumptions C07_untouched_sound_table_and_unit_settings_are_identical.

(* every string id keeps its number: the id -> text lookup of the grown table is the old lookup followed by the new texts,
   none of which the old lookup held *)
Theorem C07_string_ids_are_never_renumbered :
  forall w req t bin t' T T',
    wf_table w t bin -> Forall clean req -> add_strings w req t = Ok t' ->
    build_lookup w t = Ok T -> build_lookup w t' = Ok T' ->
    exists U, T' = T ++ U /\ NoDup U /\ (forall s, In s U -> In s req /\ ~ In s T) /\ (forall s, In s req -> In s (T ++ U)).
Proof. exact add_strings_lookup. Qed.
Print Assumptions C07_string_ids_are_never_renumbered.

(* EVERY EDIT HISTORY (induction over the sequence of operations).  Any sequence of editor operations - adding triggers built
   from any pool of new locations / switches / unit-property sets / texts, upserting unit settings - leaves every section it
   does not address where and as it was in the rich map ... *)
Theorem C07_edit_histories_keep_unaddressed_sections :
  forall p ops r0 r,
    forallb edit_only ops = true ->
    fold_left (fun acc o => do r <- acc; apply_op p r o) ops (Ok r0) = Ok r ->
    forall i s, nth_error r0 i = Some s -> untouched_by ops s = true -> nth_error r i = Some s.
Proof. exact edits_keep_untouched_sections. Qed.
Print Assumptions C07_edit_histories_keep_unaddressed_sections.

(* ... and therefore: load-level map r0, ANY such history, both maps saved (each with its own new strings, slots, sound
   metadata): the sound table is emitted byte for byte as the unedited save emits it. *)
Theorem C07_sound_table_survives_any_edit_history :
  forall p ops r0 r wd0 wd d0 d m bin T i ws,
    forallb rich_form_sec r0 = true -> forallb edit_only ops = true ->
    fold_left (fun acc o => do r <- acc; apply_op p r o) ops (Ok r0) = Ok r ->
    filter (named "STR ") r0 = [RDecodedStr "STR " 2 m] ->
    wf_table 2 m bin -> build_lookup 2 m = Ok T ->
    Forall clean (flat_map section_strings r0) -> Forall clean (flat_map section_strings r) ->
    nth_error r0 i = Some (RWav ws) -> names_known T (RWav ws) ->
    save wd0 r0 = Ok d0 -> save wd r = Ok d ->
    nth_error d i = nth_error d0 i.
Proof. exact sound_table_survives_any_edit_history. Qed.
Print Assumptions C07_sound_table_survives_any_edit_history.

(* LOCATION SLOTS.  Whatever new locations a save has to place: the rebuilt location list is the old list followed by the
   newly placed ones, and the slot of every index that was occupied still resolves to the location it resolved to. *)
Theorem C07_existing_location_slots_are_kept :
  forall r ls mr,
    filter (named "MRGN") r = [RMrgn ls] -> rebuild_mrgn r = Ok mr ->
    exists new, fst mr = ls ++ new /\
      forall i, In i (map fst (by_idx ls)) -> assocN_last i (by_idx (fst mr)) = assocN_last i (by_idx ls).
Proof. exact existing_location_slots_are_kept. Qed.
Print Assumptions C07_existing_location_slots_are_kept.

(* EVERY PRE-EXISTING TRIGGER IS UNCHANGED.  The unedited map r0 and ANY edited map r' that still holds the same decoded STR
   section, location table and unit-property table, and whose trigger section at position i is the old trigger list followed
   by new triggers, are saved (same sound metadata).  Then position i of both outputs is a TRIG section, and every trigger
   record of the unedited output is, at the same index, a record of the edited output - whatever the edits made the save
   place.  Records, not yet bytes: the binary layer writes each record on its own into 2400 bytes whatever it holds
   (C11_every_trigger_fits_the_2400_byte_layout), a step the statement does not contain.
   trigger_ok says what "pre-existing" means: every argument of the trigger denotes something that sits in the loaded
   map's tables (a text the string table resolves, a location / unit-property set occupying a slot, a numbered switch). *)
Theorem C07_preexisting_triggers_are_unchanged_byte_for_byte :
  forall r0 r' wd d0 d' m bin T ls cs i ts new,
    filter (named "STR ") r0 = [RDecodedStr "STR " 2 m] -> filter (named "STR ") r' = [RDecodedStr "STR " 2 m] ->
    wf_table 2 m bin -> build_lookup 2 m = Ok T ->
    Forall clean (flat_map section_strings r0) -> Forall clean (flat_map section_strings r') ->
    filter (named "MRGN") r0 = [RMrgn ls] -> filter (named "MRGN") r' = [RMrgn ls] ->
    filter (named "UPRP") r0 = [RUprp cs] -> filter (named "UPRP") r' = [RUprp cs] ->
    nth_error r0 i = Some (RTrig ts) -> nth_error r' i = Some (RTrig (ts ++ new)) ->
    Forall (trigger_ok T ls cs r0 r') ts ->
    save wd r0 = Ok d0 -> save wd r' = Ok d' ->
    exists v0 v', nth_error d0 i = Some (DTab "TRIG" v0) /\ nth_error d' i = Some (DTab "TRIG" v') /\
      forall k tv, nth_error (vlist "_triggers" v0) k = Some tv -> nth_error (vlist "_triggers" v') k = Some tv.
Proof. exact preexisting_triggers_survive_edits_bytewise. Qed.
Print Assumptions C07_preexisting_triggers_are_unchanged_byte_for_byte.

(* the three facts it rests on: numbers of objects that sit in a slot do not depend on what else has to be placed *)
Theorem C07_numbers_of_slotted_objects_are_stable :
  (forall r ls mr l i,
     filter (named "MRGN") r = [RMrgn ls] -> rebuild_mrgn r = Ok mr -> l_idx l = Some i -> In i (map fst (by_idx ls)) ->
     find_loc_id l (snd mr) None =
     find_loc_id l (map (fun l => (l, match l_idx l with Some i => i | None => 0%N end)) ls) None) /\
  (forall r cs up cx c c' i,
     filter (named "UPRP") r = [RUprp cs] -> rebuild_uprp r = Ok up -> cx_cuwps cx = up ->
     c_idx c = Some i -> assocN_last i (cby_idx cs) = Some c' -> rcuwp_eqb c c' = true -> id_by_cuwp cx c = Ok i) /\
  (forall r sw s k,
     RichIo.rebuild_swnm r = Ok sw -> s_idx s = Some k -> In s (flat_map section_switches r) ->
     find_switch_id s (snd sw) None = Some k).
Proof. exact (conj old_location_number_is_stable (conj old_cuwp_number_is_stable used_switch_number_is_stable)). Qed.
Print Assumptions C07_numbers_of_slotted_objects_are_stable.

(* non-vacuity: a concrete map (one text shown, one location centred on, units created with a property slot, switch 5 set)
   and a concrete edit (a new trigger with a NEW text, a NEW index-less location, a NEW nameless switch) meet every premise,
   computed in the kernel from the map's bytes *)
Theorem C07_the_byte_identity_theorem_applies_to_a_concrete_edit :
  exists v0 v', nth_error w_d0 3 = Some (DTab "TRIG" v0) /\ nth_error w_d' 3 = Some (DTab "TRIG" v') /\
    forall k tv, nth_error (vlist "_triggers" v0) k = Some tv -> nth_error (vlist "_triggers" v') k = Some tv.
Proof. exact the_old_trigger_is_unchanged. Qed.
Print Assumptions C07_the_byte_identity_theorem_applies_to_a_concrete_edit.
