(* C08 — string table growth keeps every string ID valid.  Statements only. *)
From Coq Require Import String NArith List Bool.
From RC Require Import lib.Result lib.Bytes model.Str model.StrEditor proofs.C08_proofs.
Import ListNotations.
Local Open Scope N_scope.

(* For every well-formed table (count = number of offsets; every offset lies in the data region and reaches a NUL; every
   stored string 7-bit and NUL-free; nothing assumed about order, sharing, interior pointers or which strings are
   referenced) and every list of 7-bit NUL-free strings: if the grown table can be laid out at all (offsets within the
   width), then
     (1) it is well-formed,  (2) every existing id resolves to its previous text,
     (3) every requested string has an id resolving to exactly it,
     (4) the stored data only grows, by distinct requested strings none of which was resolvable before,
     (5) adding the same list again changes nothing. *)
Theorem C08_add_strings_correct :
  forall w req t bin t' bin',
    wf_table w t bin -> Forall clean req ->
    add_strings w req t = Ok t' -> str_encode w t' = Ok bin' ->
    wf_table w t' bin' /\
    (forall i o s, nth_error (ss_offsets t) i = Some o -> resolve bin o = Ok s ->
                   exists o', nth_error (ss_offsets t') i = Some o' /\ resolve bin' o' = Ok s) /\
    (forall s, In s req -> resolvable t' bin' s) /\
    (exists U, ss_strings t' = ss_strings t ++ U /\ NoDup U /\
               forall s, In s U -> In s req /\ ~ resolvable t bin s) /\
    add_strings w req t' = Ok t'.
Proof. exact add_strings_correct. Qed.
Print Assumptions C08_add_strings_correct.

Theorem C08_strx_of_str_preserves_the_id_to_text_map :
  forall t bin bin4 i o s,
    wf_table 2 t bin -> str_encode 4 (generate_strx t) = Ok bin4 ->
    nth_error (ss_offsets t) i = Some o -> resolve bin o = Ok s ->
    exists o', nth_error (ss_offsets (generate_strx t)) i = Some o' /\ resolve bin4 o' = Ok s.
Proof. exact strx_of_str_preserves. Qed.
Print Assumptions C08_strx_of_str_preserves_the_id_to_text_map.

(* non-vacuity: a table with a string that no id refers to (where, before the fix 31ffbf5, a new id resolved to old
   text) satisfies the hypotheses *)
Theorem C08_hypotheses_are_satisfiable :
  wf_table 2 {| ss_num := 1; ss_offsets := [4]; ss_strings := [[97]; [122; 122; 122]] |}
           [1; 0; 4; 0; 97; 0; 122; 122; 122; 0].
Proof. exact wf_example. Qed.
Print Assumptions C08_hypotheses_are_satisfiable.
