(* C09 — slot allocation is sound and fails loudly when full.  Statements only. *)
From Coq Require Import String NArith List Bool Permutation.
From RC Require Import lib.Result model.Alloc proofs.Alloc_proofs proofs.C09_proofs gen.GenConsts.
Import ListNotations.
Local Open Scope N_scope.

(* For EVERY occupancy (any list of used ids) and EVERY batch in EVERY iteration order (the request list is the
   set's iteration order): objects that carry an index keep it or are not placed; no slot goes to two objects;
   every slot used was empty; every newly chosen id lies in the table's range and is not reserved. *)
Theorem C09_locations_sound :
  forall existing reqs outs, add_locations existing reqs = Ok outs ->
    table_sound 1 255 [64] existing (carried_first reqs) outs.
Proof. exact add_locations_sound. Qed.
Print Assumptions C09_locations_sound.

Theorem C09_unit_property_slots_sound :
  forall existing reqs outs, add_cuwp_slots existing reqs = Ok outs ->
    table_sound 1 64 [] existing (carried_first reqs) outs.
Proof. exact add_cuwp_slots_sound. Qed.
Print Assumptions C09_unit_property_slots_sound.

Theorem C09_wav_slots_sound :
  forall existing reqs outs, add_wav_files existing reqs = Ok outs -> table_sound 0 511 [] existing reqs outs.
Proof. exact add_wav_files_sound. Qed.
Print Assumptions C09_wav_slots_sound.

Theorem C09_switch_slots_sound :
  forall existing reqs outs, add_switches existing reqs = Ok outs -> table_sound 0 255 [] existing (carried_first reqs) outs.
Proof. exact add_switches_sound. Qed.
Print Assumptions C09_switch_slots_sound.

Theorem C09_switch_rebuild_sound :
  forall reqs outs, rebuild_swnm reqs = Ok outs ->
    NoDup (fresh_ids reqs outs) /\
    forall i, In i (fresh_ids reqs outs) -> i <= 255 /\ ~ In i (carried_ids reqs).
Proof. exact rebuild_swnm_sound. Qed.
Print Assumptions C09_switch_rebuild_sound.

(* when more new slots are needed than are free the call raises ... *)
Theorem C09_exhaustion_raises :
  (forall existing reqs, (length (free_ids 1 MAX_CUWP_SLOTS [] existing) < count_fresh (carried_first reqs))%nat ->
     exists e, add_cuwp_slots existing reqs = Raise e) /\
  (forall existing reqs, (length (free_ids 0 MAX_WAV_FILES [] existing) < count_fresh reqs)%nat ->
     exists e, add_wav_files existing reqs = Raise e) /\
  (forall existing reqs, (length (free_ids 0 MAX_SWITCHES [] existing) < count_fresh reqs)%nat ->
     exists e, add_switches existing reqs = Raise e).
Proof. exact (conj cuwp_exhaustion_raises (conj wav_exhaustion_raises switches_exhaustion_raises)). Qed.
Print Assumptions C09_exhaustion_raises.

(* ... the location table leaves the surplus unplaced instead (the save raises when a trigger needs the id) ... *)
Theorem C09_location_surplus_is_unplaced_not_misplaced :
  forall existing reqs outs, add_locations existing reqs = Ok outs ->
    forall r o, In (r, o) (combine (carried_first reqs) outs) -> r = RFresh ->
      (exists i, o = Placed i) \/ o = Unplaced.
Proof. exact location_without_index_is_placed_or_unplaced. Qed.
Print Assumptions C09_location_surplus_is_unplaced_not_misplaced.

(* ... and a full table never blocks a call that needs no new slot *)
Theorem C09_full_table_never_blocks_a_noop :
  forall existing reqs, count_fresh reqs = 0%nat ->
    ((forall k, In (RCarry k) reqs -> 1 <= k <= 255) -> (forall k, In k existing -> 1 <= k <= 255) ->
     exists o, add_locations existing reqs = Ok o) /\
    (exists o, add_cuwp_slots existing reqs = Ok o) /\
    (exists o, add_wav_files existing reqs = Ok o) /\ (exists o, add_switches existing reqs = Ok o).
Proof. exact full_table_never_blocks_a_noop. Qed.
Print Assumptions C09_full_table_never_blocks_a_noop.

(* a location index outside [1, 255] is refused up front - full table or not, in the section or only in a trigger *)
Theorem C09_out_of_range_location_is_refused :
  forall existing reqs k, In k (existing ++ carried_ids reqs) -> k < 1 \/ 255 < k ->
    add_locations existing reqs = Raise ValueError.
Proof. exact out_of_range_location_is_refused. Qed.
Print Assumptions C09_out_of_range_location_is_refused.

Theorem C09_anchors :
  add_locations (range_from 1 62) (repeat RFresh 3) = Ok [Placed 63; Placed 65; Placed 66] /\
  add_locations [] [RFresh; RCarry 1; RCarry 1] = Ok [Placed 1; Dropped; Placed 2].
Proof. exact (conj anywhere_is_never_allocated carried_index_is_respected). Qed.
Print Assumptions C09_anchors.

(* a location carrying a free in-range index (slot 64 included) is placed there even when no ordinary index is left
   (fix 620b222) *)
Theorem C09_carried_free_location_is_placed_even_when_full :
  forall existing ks rest outs,
    NoDup ks -> (forall k, In k ks -> ~ In k existing) ->
    add_locations existing (map RCarry ks ++ rest) = Ok outs ->
    forallb (fun r => match r with RCarry _ => false | _ => true end) rest = true ->
    firstn (length ks) outs = map Placed ks.
Proof. exact carried_free_location_is_placed_even_when_full. Qed.
Print Assumptions C09_carried_free_location_is_placed_even_when_full.
