(* C10 — unmodelled content passes through untouched and in place.  Statements, each closed in a line or two from proofs/. *)
From Coq Require Import String NArith List Bool.
From RC Require Import lib.Result lib.Bytes model.Layout model.ChkIo model.TrigTable model.RichCodec model.RichIo
  proofs.Entries proofs.C10_proofs proofs.C10_entries gen.GenTrig gen.GenFlags.
Import ListNotations.

(* sections: for every decoded map, every position i holding an unmodelled section (unknown name, STRx, a recognised
   section without a rich model other than the recomputed UPUS), and ANY edits that leave position i alone,
   the save puts the very same section at position i *)
Theorem C10_unmodelled_section_survives_in_place :
  forall d r r' wd d' i s,
    load d = Ok r -> nth_error d i = Some s -> unmodelled s = true ->
    nth_error r' i = nth_error r i -> save wd r' = Ok d' -> nth_error d' i = Some s.
Proof. exact unmodelled_section_survives. Qed.
Print Assumptions C10_unmodelled_section_survives_in_place.

Theorem C10_trigger_editor_leaves_other_sections_in_place :
  forall new r r' i s, add_triggers new r = Ok r' -> nth_error r i = Some s ->
    (forall ts, s <> RTrig ts) -> nth_error r' i = Some s.
Proof. exact add_triggers_keeps_other_sections. Qed.
Print Assumptions C10_trigger_editor_leaves_other_sections_in_place.

(* trigger entries: a type byte outside the enumeration, or inside it but without a transcoder, is kept as the raw
   record by decode (whatever the lookups are) and written back field for field by encode (whatever the new lookups are) *)
Theorem C10_unknown_entry_is_kept_raw :
  forall cx cx' table enum idf flagc fields vals,
    NoDup fields -> length vals = length fields ->
    enum_has enum (vint idf (entry_val fields vals)) = false ->
    exists e, decode_entry_of cx table enum idf flagc fields (entry_val fields vals) = Ok (Some e) /\
              encode_entry_of cx' table flagc fields e = Ok (entry_val fields vals).
Proof. intros cx cx' table enum idf flagc fields vals Hnd Hlen Hout. apply raw_entry_roundtrip; auto. Qed.
Print Assumptions C10_unknown_entry_is_kept_raw.

Theorem C10_unsupported_entry_is_kept_raw :
  forall cx cx' table enum idf flagc fields vals,
    NoDup fields -> length vals = length fields ->
    vint idf (entry_val fields vals) <> NO_ENTRY ->
    find_entry (vint idf (entry_val fields vals)) table = None ->
    exists e, decode_entry_of cx table enum idf flagc fields (entry_val fields vals) = Ok (Some e) /\
              encode_entry_of cx' table flagc fields e = Ok (entry_val fields vals).
Proof. intros cx cx' table enum idf flagc fields vals Hnd Hlen Hid Hnone. apply raw_entry_roundtrip; auto. Qed.
Print Assumptions C10_unsupported_entry_is_kept_raw.

Theorem C10_record_fields_are_distinct : NoDup action_record_fields /\ NoDup condition_record_fields.
Proof. exact record_fields_nodup. Qed.
Print Assumptions C10_record_fields_are_distinct.

Local Open Scope string_scope.

(* Inside a trigger, for whole entry lists: whatever the 16 / 64 entries are (supported, unsupported, unknown, empty) and
   whatever the two contexts are, the entries without a rich model come out of decode -> encode exactly as they went in,
   field for field and in the same ORDER; supported entries and padding never turn into one. *)
Theorem C10_unmodelled_entries_keep_content_and_order :
  forall cx cx' v t v', trigger_decode cx v = Ok t -> trigger_encode cx' t = Ok v' -> raw_entries_preserved v v'.
Proof. exact trigger_raw_entries_survive. Qed.
Print Assumptions C10_unmodelled_entries_keep_content_and_order.

(* ... and keep their POSITION when no empty slot precedes them (an empty slot before them is the recorded finding
   interior-gap-compacted: the rich layer drops it) *)
Theorem C10_unmodelled_action_keeps_its_position :
  forall cx cx' n vs os vs' k v,
    mapM (decode_entry_of cx gen_action_table "TriggerActionId" "_action_id" action_flags_codec action_record_fields) vs = Ok os ->
    mapM (encode_entry_of cx' gen_action_table action_flags_codec action_record_fields) (somes os) = Ok vs' ->
    forallb (fun x => negb (N.eqb (vint "_action_id" x) NO_ENTRY) || raw_action x) (firstn k vs) = true ->
    nth_error vs k = Some v -> raw_action v = true ->
    nth_error (pad_to n (empty_entry action_record_fields) vs') k = Some (norm action_record_fields v).
Proof.
  exact (raw_entry_keeps_its_position gen_action_table "TriggerActionId" "_action_id" action_flags_codec action_record_fields
           (proj1 record_fields_nodup) (proj1 action_id_field) (proj2 action_id_field) action_table_ids_ok).
Qed.
Print Assumptions C10_unmodelled_action_keeps_its_position.

(* The whole path: load a map; append triggers to the TRIG section at position i, do anything to the other sections; save
   (with or without sound metadata).  Position i of the output is a TRIG section whose trigger k is the input's trigger k
   with its unmodelled conditions and actions preserved as above. *)
Theorem C10_unmodelled_entries_survive_load_edit_save :
  forall d r r' wd d' i v ts new,
    load d = Ok r -> nth_error d i = Some (DTab "TRIG" v) ->
    nth_error r i = Some (RTrig ts) -> nth_error r' i = Some (RTrig (ts ++ new)) ->
    save wd r' = Ok d' ->
    exists v', nth_error d' i = Some (DTab "TRIG" v') /\
      forall k tv, nth_error (vlist "_triggers" v) k = Some tv ->
        exists tv', nth_error (vlist "_triggers" v') k = Some tv' /\ raw_entries_preserved tv tv'.
Proof. exact raw_trigger_entries_survive_load_edit_save. Qed.
Print Assumptions C10_unmodelled_entries_survive_load_edit_save.
