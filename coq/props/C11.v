(* C11 — every emitted CHK is structurally valid, or the call raises.  Statements only.
   Proved for every rich content whatsoever: the size rules.  The reference
   rules (every id written refers to an existing non-empty entry) are judged by tools/c11.py's independent validator on
   the implementation's output, which the pipeline model reproduces byte for byte. *)
From Coq Require Import String NArith List Bool.
From RC Require Import lib.Result lib.Bytes model.Layout model.ChkIo model.RichCodec model.RichIo proofs.C11_proofs proofs.Save_sizes proofs.Save_refs proofs.C11_upus proofs.C07_triggers proofs.Str_proofs model.Str
  gen.GenLayouts gen.GenConsts.
Import ListNotations.

(* TRIG: whatever triggers are encoded, the section, if emitted at all, is a whole number of 2400-byte triggers, each with
   16 conditions, 64 actions and 27 player flags *)
Theorem C11_trigger_section_is_whole_triggers :
  forall cx ts v bs, trig_encode cx ts = Ok v -> encode_l enc_TRIG v = Ok bs -> length bs = length ts * 2400.
Proof. exact trig_section_is_whole_triggers. Qed.
Print Assumptions C11_trigger_section_is_whole_triggers.

Theorem C11_every_trigger_fits_the_2400_byte_layout :
  forall cx t v, trigger_encode cx t = Ok v -> fits trigger_layout v = true.
Proof. exact trigger_encode_fits. Qed.
Print Assumptions C11_every_trigger_fits_the_2400_byte_layout.

(* fixed tables: the rich encoders always lay out exactly 255 / 64 / 64 / 512 slots *)
Theorem C11_fixed_tables_have_their_slot_counts :
  (forall L ls v, mrgn_encode L ls = Ok v -> length (vlist "_locations" v) = N.to_nat MRGN_TRANSCODER_MAX_LOCATIONS) /\
  (forall cs v, uprp_encode cs = Ok v -> length (vlist "_cuwp_slots" v) = N.to_nat MAX_CUWP_SLOTS) /\
  (forall cs v, upus_rebuild cs = Ok v -> length (vlist "_cuwp_slots_used" v) = N.to_nat MAX_CUWP_SLOTS) /\
  (forall L ws v, wav_encode L ws = Ok v -> length (vlist "_wav_string_ids" v) = N.to_nat MAX_WAV_FILES).
Proof. exact slot_counts. Qed.
Print Assumptions C11_fixed_tables_have_their_slot_counts.

(* generic: a value of the layout's shape encodes to exactly the layout's size; a strict array of the wrong length raises *)
Theorem C11_encoded_size_is_the_layout_size :
  forall l v bs s, wf_l l = true -> size_l l = Some s -> fits l v = true -> encode_l l v = Ok bs -> length bs = s.
Proof. exact encode_size. Qed.
Print Assumptions C11_encoded_size_is_the_layout_size.

Theorem C11_wrong_count_raises :
  forall n l vs, length vs <> n -> encode_l (Arr n true l) (VList vs) = Raise StructError.
Proof. exact strict_array_refuses_wrong_count. Qed.
Print Assumptions C11_wrong_count_raises.

(* THE WHOLE MAP.  Whatever rich content is saved: if RichChkIo.encode_chk returns at all, EVERY table section in its output - the re-encoded MRGN, TRIG, UNIS, UNIx, UPRP,
   SWNM, WAV, the recomputed UPUS, and the SWNM / UPRP / UPUS appended when the map had none - encodes to exactly the size
   the format mandates (5100, k*2400, 4048, 4168, 1280, 1024, 2048, 64), or its binary encoder raises.  "Rich form" = every
   section that has a rich model is held as that model (what decode_chk returns and the editors keep). *)
Theorem C11_every_saved_table_section_has_its_mandated_size :
  forall wd r d, forallb rich_form_sec r = true -> save wd r = Ok d -> Forall payload_ok d.
Proof. exact save_emits_mandated_sizes. Qed.
Print Assumptions C11_every_saved_table_section_has_its_mandated_size.

(* the premise holds for whatever decode_chk returns, and the trigger editor keeps it *)
Theorem C11_loaded_maps_are_in_rich_form :
  forall d r, load d = Ok r -> forallb rich_form_sec r = true.
Proof. exact loaded_maps_are_in_rich_form. Qed.
Print Assumptions C11_loaded_maps_are_in_rich_form.

(* generic: a layout written by whole-array struct.pack calls only (UNIS, UNIx, UPUS, SWNM, WAV) has its size for ANY value *)
Theorem C11_strict_layouts_have_their_size_for_any_value :
  forall l v bs s, all_strict l = true -> size_l l = Some s -> encode_l l v = Ok bs -> length bs = s.
Proof. exact strict_encode_size. Qed.
Print Assumptions C11_strict_layouts_have_their_size_for_any_value.

(* content that cannot be laid out raises: a string table holding a string that is not NUL-free 7-bit text
   is never written (fix cee72c9; before it the first len(s) bytes of the UTF-8 form were written and the table could no
   longer be decoded) *)
Theorem C11_a_string_that_cannot_be_stored_is_refused :
  forall w m s, In s (ss_strings m) -> (exists c, In c s /\ (c = 0 \/ 128 <= c)%N) -> exists e, str_encode w m = Raise e.
Proof. exact str_encode_refuses. Qed.
Print Assumptions C11_a_string_that_cannot_be_stored_is_refused.

(* THE WHOLE MAP, string references.  If RichChkIo.encode_chk returns at all: the STR section it emits is the rebuilt
   table; the id -> text lookup L of that table has one entry per string number; and EVERY string number written into the
   location table, the switch-name table and the sound table (re-encoded or appended) is 0 or a number of that table
   (for a table of at most 1000000 texts, the cap of the model's lookup). *)
Theorem C11_every_string_number_written_refers_to_the_emitted_table :
  forall wd r d,
    forallb rich_form_sec r = true -> save wd r = Ok d ->
    exists new_str L,
      rebuild_str r = Ok new_str /\ build_str_lookup 2 new_str = Ok L /\
      length (sl_by_id L) = length (ss_offsets new_str) /\
      (forall i n w m, nth_error r i = Some (RDecodedStr n w m) -> n = "STR "%string -> nth_error d i = Some (DStr n w new_str)) /\
      (N.of_nat (length (sl_by_id L)) <= 1000000 -> Forall (refs_ok L) d)%N.
Proof. exact saved_string_references_are_valid. Qed.
Print Assumptions C11_every_string_number_written_refers_to_the_emitted_table.

(* the slot-usage table agrees with the slots in use: byte k of UPUS is 1 exactly when slot k of UPRP was written from a
   unit-property set carrying index k+1; where it is 0 that slot is the all-zero record (not conversely: a set of all-zero
   properties that carries an index writes the all-zero record too - the recorded finding content-empty-object-referenced) *)
Theorem C11_usage_table_agrees_with_the_unit_property_slots :
  forall cs us uv k,
    upus_rebuild cs = Ok us -> uprp_encode cs = Ok uv -> (k < N.to_nat MAX_CUWP_SLOTS)%nat ->
    (nth_error (vlist "_cuwp_slots_used" us) k = Some (VInt 1) /\
     exists c slot, assocN_last (N.of_nat k + 1) (cby_idx cs) = Some c /\
                    nth_error (vlist "_cuwp_slots" uv) k = Some slot /\ cuwp_encode c = Ok slot)
    \/
    (nth_error (vlist "_cuwp_slots_used" us) k = Some (VInt 0) /\
     assocN_last (N.of_nat k + 1) (cby_idx cs) = None /\
     nth_error (vlist "_cuwp_slots" uv) k = Some empty_cuwp_val).
Proof. exact upus_agrees_with_uprp. Qed.
Print Assumptions C11_usage_table_agrees_with_the_unit_property_slots.
