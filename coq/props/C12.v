(* C12 — flag, enum and fixed-point codecs are exact on their whole domain.
   Statements, each closed in a line or two from a lemma of proofs/, with Print Assumptions beneath. *)
From Coq Require Import NArith List Bool String.
From RC Require Import lib.Result lib.Utf8 proofs.Utf8_inverse model.Flags model.Enums proofs.Flags_proofs
  gen.GenFlags gen.GenEnums proofs.C12_proofs
  lib.Bytes model.Scalars gen.GenScalars proofs.C12_scalars.
Local Open Scope N_scope.

Theorem C12_action_flags_number_to_rich_and_back :
  forall x, x < 256 -> exists r, fdecode action_flags_codec x = Ok r /\ fencode action_flags_codec r = Ok (x mod 2 ^ 5).
Proof. exact (fun x _ => action_flags_num x). Qed.
Print Assumptions C12_action_flags_number_to_rich_and_back.

Theorem C12_action_flags_rich_to_number_and_back :
  forall bs : list bool, List.length bs = 5%nat -> rich_roundtrip action_flags_codec 5 bs.
Proof. exact action_flags_rich. Qed.
Print Assumptions C12_action_flags_rich_to_number_and_back.

Theorem C12_condition_flags_number_to_rich_and_back :
  forall x, x < 256 -> exists r, fdecode condition_flags_codec x = Ok r /\ fencode condition_flags_codec r = Ok (x mod 2 ^ 5).
Proof. exact (fun x _ => condition_flags_num x). Qed.
Print Assumptions C12_condition_flags_number_to_rich_and_back.

Theorem C12_condition_flags_rich_to_number_and_back :
  forall bs : list bool, List.length bs = 5%nat -> rich_roundtrip condition_flags_codec 5 bs.
Proof. exact condition_flags_rich. Qed.
Print Assumptions C12_condition_flags_rich_to_number_and_back.

Theorem C12_elevation_flags_number_to_rich_and_back :
  forall x, x < 65536 -> exists r, fdecode elevation_flags_codec x = Ok r /\ fencode elevation_flags_codec r = Ok (x mod 2 ^ 6).
Proof. exact (fun x _ => elevation_flags_num x). Qed.
Print Assumptions C12_elevation_flags_number_to_rich_and_back.

Theorem C12_elevation_flags_rich_to_number_and_back :
  forall bs : list bool, List.length bs = 6%nat -> rich_roundtrip elevation_flags_codec 6 bs.
Proof. exact elevation_flags_rich. Qed.
Print Assumptions C12_elevation_flags_rich_to_number_and_back.

Theorem C12_cuwp_unit_property_flags_number_to_rich_and_back :
  forall x, x < 65536 -> exists r, fdecode cuwp_unit_property_flags_codec x = Ok r /\ fencode cuwp_unit_property_flags_codec r = Ok (x mod 2 ^ 6).
Proof. exact (fun x _ => cuwp_unit_property_flags_num x). Qed.
Print Assumptions C12_cuwp_unit_property_flags_number_to_rich_and_back.

Theorem C12_cuwp_unit_property_flags_rich_to_number_and_back :
  forall bs : list bool, List.length bs = 6%nat -> rich_roundtrip cuwp_unit_property_flags_codec 6 bs.
Proof. exact cuwp_unit_property_flags_rich. Qed.
Print Assumptions C12_cuwp_unit_property_flags_rich_to_number_and_back.

Theorem C12_cuwp_valid_special_flags_number_to_rich_and_back :
  forall x, x < 65536 -> exists r, fdecode cuwp_valid_special_flags_codec x = Ok r /\ fencode cuwp_valid_special_flags_codec r = Ok (x mod 2 ^ 6).
Proof. exact (fun x _ => cuwp_valid_special_flags_num x). Qed.
Print Assumptions C12_cuwp_valid_special_flags_number_to_rich_and_back.

Theorem C12_cuwp_valid_special_flags_rich_to_number_and_back :
  forall bs : list bool, List.length bs = 6%nat -> rich_roundtrip cuwp_valid_special_flags_codec 6 bs.
Proof. exact cuwp_valid_special_flags_rich. Qed.
Print Assumptions C12_cuwp_valid_special_flags_rich_to_number_and_back.

Theorem C12_cuwp_valid_unit_flags_number_to_rich_and_back :
  forall x, x < 65536 -> exists r, fdecode cuwp_valid_unit_flags_codec x = Ok r /\ fencode cuwp_valid_unit_flags_codec r = Ok (x mod 2 ^ 7).
Proof. exact (fun x _ => cuwp_valid_unit_flags_num x). Qed.
Print Assumptions C12_cuwp_valid_unit_flags_number_to_rich_and_back.

Theorem C12_cuwp_valid_unit_flags_rich_to_number_and_back :
  forall bs : list bool, List.length bs = 7%nat -> rich_roundtrip cuwp_valid_unit_flags_codec 7 bs.
Proof. exact cuwp_valid_unit_flags_rich. Qed.
Print Assumptions C12_cuwp_valid_unit_flags_rich_to_number_and_back.

(* every enumeration: members round-trip, non-members (any n : N, unbounded) raise KeyError,
   decode never returns a member whose id differs, ids and members are in bijection *)
Theorem C12_every_enum_is_exact :
  forall name E, In (name, E) all_enums ->
    (forall i m, In (i, m) E -> enum_decode E i = Ok m /\ enum_encode E m = Ok i) /\
    (forall n, ~ In n (map fst E) -> enum_decode E n = Raise KeyError) /\
    (forall n m, enum_decode E n = Ok m -> In (n, m) E /\ enum_encode E m = Ok n) /\
    (forall i m1 m2, In (i, m1) E -> In (i, m2) E -> m1 = m2) /\
    (forall i1 i2 m, In (i1, m) E -> In (i2, m) E -> i1 = i2).
Proof. exact all_enums_exact. Qed.
Print Assumptions C12_every_enum_is_exact.

(* hit points: Decimal(raw) / Decimal(256), as an exact count of 10^-8 units *)
Theorem C12_hit_points_number_to_rich_and_back : forall raw, hp_encode (hp_decode raw) = raw.
Proof. exact hp_number_to_rich_and_back. Qed.
Print Assumptions C12_hit_points_number_to_rich_and_back.

Theorem C12_hit_points_rich_to_number_and_back :
  forall d, (hp_scale / HP_DIVISOR | d) -> hp_decode (hp_encode d) = d.
Proof. exact hp_rich_to_number_and_back. Qed.
Print Assumptions C12_hit_points_rich_to_number_and_back.

Theorem C12_hit_points_quotient_is_exact_and_within_decimal_precision :
  hp_scale mod HP_DIVISOR = 0 /\ forall raw, raw < 2 ^ 32 -> hp_decode raw < 10 ^ 28.
Proof. split; [exact (proj1 hp_quotient_exact) | exact hp_within_decimal_precision]. Qed.
Print Assumptions C12_hit_points_quotient_is_exact_and_within_decimal_precision.

(* AI scripts: every u32 whose four bytes are valid UTF-8 *)
Theorem C12_ai_script_number_to_rich_and_back : forall n a, ai_decode n = Ok a -> ai_encode a = Ok n.
Proof. exact ai_number_to_rich_and_back. Qed.
Print Assumptions C12_ai_script_number_to_rich_and_back.

Theorem C12_ai_script_member_iff_exact_tag :
  forall n i, ai_decode n = Ok (AiKnown i) -> nth_error gen_ai_tags i = Some (le_encode 4 n).
Proof. exact ai_known_exact_tag. Qed.
Print Assumptions C12_ai_script_member_iff_exact_tag.

Theorem C12_ai_script_distinct_numbers_distinct_values :
  forall n m a, ai_decode n = Ok a -> ai_decode m = Ok a -> n = m.
Proof. exact ai_decode_injective. Qed.
Print Assumptions C12_ai_script_distinct_numbers_distinct_values.

(* rich -> number -> rich for AI scripts: the number a script is written as decodes again, to a script of the same name
   (a known member when the four bytes are a member's tag).  It rests on the encode-then-decode direction of the UTF-8 round
   trip for ALL code points (proofs/Utf8_inverse.v). *)
Theorem C12_ai_script_rich_to_number_and_back :
  forall a n, ai_encode a = Ok n -> exists a', ai_decode n = Ok a' /\ ai_name_of a' = ai_name_of a.
Proof. exact ai_rich_to_number_and_back. Qed.
Print Assumptions C12_ai_script_rich_to_number_and_back.

Theorem C12_utf8_encode_then_decode_is_the_identity :
  forall s bs, Utf8.utf8_encode s = Ok bs -> Utf8.utf8_decode bs = Ok s.
Proof. exact Utf8_inverse.utf8_encode_decode. Qed.
Print Assumptions C12_utf8_encode_then_decode_is_the_identity.
