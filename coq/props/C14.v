(* C14 — saving is deterministic up to the numbering of new slots.  Statements, each closed in a line or two. *)
From Coq Require Import String NArith List Bool Permutation.
From RC Require Import lib.Result model.Alloc proofs.Alloc_proofs proofs.C09_proofs.
Import ListNotations.
Local Open Scope N_scope.

(* the allocation engine in raise mode (unit-property slots) on requests sorted as the editors sort them, carried indices
   first: two iteration orders of the same objects — distinct unused carried indices in any order, then n index-less
   objects — both succeed or both raise, keep the carried indices, hand out the same list of new ids (only its
   distribution over the objects follows the order) and occupy the same slots *)
Theorem C14_allocation_is_order_independent_up_to_renaming :
  forall ks ks' n rest rest' used free,
    Permutation ks ks' -> NoDup ks -> (forall k, In k ks -> ~ In k used) ->
    rest = repeat RFresh n -> rest' = repeat RFresh n ->
    match engine false true None (map RCarry ks ++ rest) used free,
          engine false true None (map RCarry ks' ++ rest') used free with
    | Ok o, Ok o' =>
        fresh_ids (map RCarry ks ++ rest) o = fresh_ids (map RCarry ks' ++ rest') o' /\
        Permutation (placed_ids o) (placed_ids o')
    | Raise _, Raise _ => True
    | _, _ => False
    end.
Proof.
  intros ks ks' n rest rest' used free P Hnd Hun -> ->.
  generalize (order_independent_gen false None ks ks' n used free P Hnd Hun (fun _ _ => eq_refl)).
  destruct (engine _ _ _ _ _ _), (engine _ _ _ _ _ _); tauto.
Qed.
Print Assumptions C14_allocation_is_order_independent_up_to_renaming.

Theorem C14_unit_property_slots_order_independent :
  forall existing ks ks' n,
    Permutation ks ks' -> NoDup ks -> (forall k, In k ks -> ~ In k existing) ->
    match add_cuwp_slots existing (map RCarry ks ++ repeat RFresh n),
          add_cuwp_slots existing (map RCarry ks' ++ repeat RFresh n) with
    | Ok o, Ok o' =>
        fresh_ids (map RCarry ks ++ repeat RFresh n) o = fresh_ids (map RCarry ks' ++ repeat RFresh n) o' /\
        Permutation (placed_ids o) (placed_ids o')
    | Raise _, Raise _ => True
    | _, _ => False
    end.
Proof.
  intros existing ks ks' n P Hnd Hun. generalize (cuwp_order_independent existing ks ks' n P Hnd Hun).
  destruct (add_cuwp_slots _ _), (add_cuwp_slots _ _); tauto.
Qed.
Print Assumptions C14_unit_property_slots_order_independent.

(* requests without carried indices are served from the free list front to back, in every mode *)
Theorem C14_fresh_ids_are_a_prefix_of_the_free_list :
  forall b c rg reqs used free outs,
    forallb (fun r => negb (is_carry r)) reqs = true -> engine b c rg reqs used free = Ok outs ->
    exists n, fresh_ids reqs outs = firstn n free.
Proof. exact engine_no_carry_fresh. Qed.
Print Assumptions C14_fresh_ids_are_a_prefix_of_the_free_list.

(* the location table (surplus left unplaced when full) and the switch editor, same statement: both orders give the same
   verdict, new ids, occupied slots and outcomes for the index-less objects (so the same number left unplaced).  Before
   the fixes 620b222 / 7e75338 this was false: with one ordinary slot left, a batch claiming that slot and slot 64 kept
   both or only one depending on the order; a switch without an ID could take the ID another switch of the batch
   carried. *)
Theorem C14_location_slots_order_independent :
  forall existing ks ks' n,
    Permutation ks ks' -> NoDup ks -> (forall k, In k ks -> ~ In k existing) ->
    match add_locations existing (map RCarry ks ++ repeat RFresh n),
          add_locations existing (map RCarry ks' ++ repeat RFresh n) with
    | Ok o, Ok o' =>
        fresh_ids (map RCarry ks ++ repeat RFresh n) o = fresh_ids (map RCarry ks' ++ repeat RFresh n) o' /\
        Permutation (placed_ids o) (placed_ids o') /\
        skipn (length ks) o = skipn (length ks') o'
    | Raise _, Raise _ => True
    | _, _ => False
    end.
Proof. exact locations_order_independent. Qed.
Print Assumptions C14_location_slots_order_independent.

Theorem C14_switch_editor_order_independent :
  forall existing ks ks' n,
    Permutation ks ks' -> NoDup ks -> (forall k, In k ks -> ~ In k existing) ->
    match add_switches existing (map RCarry ks ++ repeat RFresh n),
          add_switches existing (map RCarry ks' ++ repeat RFresh n) with
    | Ok o, Ok o' =>
        fresh_ids (map RCarry ks ++ repeat RFresh n) o = fresh_ids (map RCarry ks' ++ repeat RFresh n) o' /\
        Permutation (placed_ids o) (placed_ids o') /\
        skipn (length ks) o = skipn (length ks') o'
    | Raise _, Raise _ => True
    | _, _ => False
    end.
Proof. exact switches_order_independent. Qed.
Print Assumptions C14_switch_editor_order_independent.
