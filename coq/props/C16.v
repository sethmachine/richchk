(* C16 — map saving is failure-atomic and never touches the base map.  Statements only. *)
From Coq Require Import String List Bool.
From RC Require Import lib.Result model.IoDsl proofs.C15_proofs.
Import ListNotations.

(* save_chk_to_mpq and add_audio_files_to_mpq, destination absent or existing, 0..3 sounds in the base map,
   1..3 audio files: in EVERY execution of the fault-enumerating semantics (any ONE primitive call failing
   before, after or part-way: a failure ends the run, and clean-up does not fail) the base map and the audio files are unchanged, no temp / .part file remains, and the
   destination is as before or a complete new map; a run without failure ends with the complete new map *)
Theorem C16_save_and_audio_import_are_failure_atomic : c16_atomic_all = true.
Proof. exact c16_atomic_all_true. Qed.
Print Assumptions C16_save_and_audio_import_are_failure_atomic.

Theorem C16_reading_a_map_leaves_it_untouched_and_no_temp_file : c16_read_all = true.
Proof. exact c16_read_all_true. Qed.
Print Assumptions C16_reading_a_map_leaves_it_untouched_and_no_temp_file.

(* the statement is not vacuous: it is FALSE of the save as it was before the repair (plain copy onto the destination) *)
Theorem C16_unrepaired_save_refuted :
  exists r, In r (all_runs (prog_save_chk_to_mpq_unrepaired true 0) (fs_of true true true)) /\
            atomic_ok (fs_of true true true) r = false.
Proof. exact unrepaired_save_refuted. Qed.
Print Assumptions C16_unrepaired_save_refuted.

Theorem C16_number_of_executions_covered :
  length (all_runs (prog_save_chk_to_mpq true 3) (fs_of true true true)) = 53 /\
  length (all_runs (prog_add_audio_files_to_mpq true 3 3) (fs_of true true true)) = 108.
Proof. exact execution_counts. Qed.
Print Assumptions C16_number_of_executions_covered.
