(* C17 — map archives round-trip: CHK exact, other members preserved.  Statements, each closed in a few lines from the
   lemmas of model/Archive.v.
   PARTIAL: everything here is under the three hypotheses StormLibSpec_extract / _add / _compact (about sl_extract,
   sl_add, sl_compact).  That the bundled libstorm binary satisfies them is runtime behaviour, exercised by the correspondence. *)
From Coq Require Import String NArith List Bool.
From RC Require Import lib.Result model.Archive.
Import ListNotations.

Theorem C17_saved_archive_partial :
  forall (content : Type) (sl_extract : archive content -> string -> option content)
         (sl_add : archive content -> string -> content -> archive content)
         (sl_compact : archive content -> archive content),
    (forall a m, sl_extract a m = a m) ->
    (forall a m c m', sl_add a m c m' = if String.eqb m' m then Some c else a m') ->
    (forall a m, sl_compact a m = a m) ->
    forall base chk,
      save_chk content sl_add sl_compact base chk chk_member = Some chk /\
      (forall m, m <> chk_member -> save_chk content sl_add sl_compact base chk m = base m) /\
      read_chk content sl_extract (save_chk content sl_add sl_compact base chk) = Some chk.
Proof.
  intros content ex ad co H1 H2 H3 base chk. split; [|split].
  - exact (save_chk_scenario content ad co H2 H3 base chk).
  - intros m Hm. exact (save_chk_other content ad co H2 H3 base chk m Hm).
  - exact (read_after_save content ex ad co H1 H2 H3 base chk).
Qed.
Print Assumptions C17_saved_archive_partial.

Theorem C17_imported_audio_is_stored_under_the_canonical_path_partial :
  forall (content : Type) (sl_add : archive content -> string -> content -> archive content),
    (forall a m c m', sl_add a m c m' = if String.eqb m' m then Some c else a m') ->
    forall files a name c,
      In (name, c) files -> (forall c', In (name, c') files -> c' = c) ->
      fold_left (fun a f => sl_add a (wav_member (fst f)) (snd f)) files a (wav_member name) = Some c.
Proof. intros content ad H2 files a name c. exact (fold_add_last content ad H2 files a name c). Qed.
Print Assumptions C17_imported_audio_is_stored_under_the_canonical_path_partial.

Theorem C17_import_leaves_other_members_alone_partial :
  forall (content : Type) (sl_add : archive content -> string -> content -> archive content),
    (forall a m c m', sl_add a m c m' = if String.eqb m' m then Some c else a m') ->
    forall files a m,
      (forall f, In f files -> wav_member (fst f) <> m) ->
      fold_left (fun a f => sl_add a (wav_member (fst f)) (snd f)) files a m = a m.
Proof. intros content ad H2 files a m. exact (fold_add_other content ad H2 files a m). Qed.
Print Assumptions C17_import_leaves_other_members_alone_partial.
